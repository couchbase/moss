(* Prefix.v — ghost bookkeeping for "how much of the batch history has reached
   which section": a <= b <= d <= |h| with
     lower level            reads as the reference after the first a batches,
     base over it           ... after the first b,
     mid over base over it  ... after the first d,
   (top over all of it: the whole history — CollectionFacts.inv_view).
   The ghost is computed from the labels alone; it never influences the model. *)
From Coq Require Import List NArith Bool Lia Arith.
From Moss Require Import Bytes BytesFacts Segment SegmentFacts Stack StackFacts
     Collection CollectionFacts.

Record ghost := { ga : nat; gb : nat; gd : nat }.

Definition ghost0 : ghost := {| ga := 0; gb := 0; gd := 0 |}.

(* hlen = number of batches executed before this label *)
Definition gstep (c : cfg) (s : cstate) (hlen : nat) (g : ghost) (lb : label) : ghost :=
  match lb with
  | LIngest => {| ga := ga g; gb := gb g; gd := hlen |}
  | LHandover =>
      match base s, mid s with
      | None, Some _ => if has_ll c then {| ga := ga g; gb := gd g; gd := gd g |} else g
      | _, _ => g
      end
  | LPPublish _ => {| ga := gb g; gb := gb g; gd := gd g |}
  | _ => g
  end.

Section WithMerge.
  Variable fm : bytes -> value -> bytes -> value.
  Notation sget := (sget fm).
  Notation llv := (llv fm).
  Notation step := (step fm).
  Notation ref_from := (ref_from fm).

  Fixpoint grun (c : cfg) (s : cstate) (hlen : nat) (g : ghost) (ls : list label)
    : option (cstate * ghost) :=
    match ls with
    | [] => Some (s, g)
    | lb :: r =>
        match step c s lb with
        | Some s' => grun c s' (hlen + length (label_batches lb)) (gstep c s hlen g lb) r
        | None => None
        end
    end.

  Lemma grun_run c s hlen g ls s' g' :
    grun c s hlen g ls = Some (s', g') -> run fm c s ls = Some s'.
  Proof.
    revert s hlen g. induction ls as [|lb r IH]; simpl; intros s hlen g H.
    - now injection H as <- <-.
    - destruct (step c s lb); [|discriminate]. eauto.
  Qed.

  Lemma run_grun c s hlen g ls s' :
    run fm c s ls = Some s' -> exists g', grun c s hlen g ls = Some (s', g').
  Proof.
    revert s hlen g. induction ls as [|lb r IH]; simpl; intros s hlen g H.
    - injection H as <-. eauto.
    - destruct (step c s lb); [|discriminate]. eauto.
  Qed.

  Record PInv (m0 : bytes -> value) (h : list segment) (s : cstate) (g : ghost) : Prop := {
    p_ord : ga g <= gb g /\ gb g <= gd g /\ gd g <= length h;
    p_ll : forall k, llv (ll s) k = ref_from m0 (firstn (ga g) h) k;
    p_base : forall k, sget (olist (base s)) (llv (ll s)) k = ref_from m0 (firstn (gb g) h) k;
    p_mid : forall k, sget (olist (mid s) ++ olist (base s)) (llv (ll s)) k
                      = ref_from m0 (firstn (gd g) h) k;
    p_nobase : base s = None -> ga g = gb g
  }.

  Lemma pinv_init l : PInv (llv l) [] (init l) ghost0.
  Proof. constructor; simpl; auto. Qed.

  Lemma pinv_same m0 h s s' g :
    mid s' = mid s -> base s' = base s -> ll s' = ll s ->
    PInv m0 h s g -> PInv m0 h s' g.
  Proof.
    intros E2 E3 E5 [Ho Hl Hb Hm Hn]. constructor; rewrite ?E2, ?E3, ?E5; auto.
  Qed.

  Theorem step_pinv c m0 h s g lb s' :
    InvOpen fm c m0 h s -> PInv m0 h s g -> step c s lb = Some s' ->
    closed s' = true \/ PInv m0 (h ++ label_batches lb) s' (gstep c s (length h) g lb).
  Proof.
    intros HI HP Hs. destruct (closed s) eqn:Ecl; [now rewrite step_closed in Hs|].
    unfold Collection.step in Hs. rewrite Ecl in Hs.
    pose proof HP as [(Hab & Hbd & Hdh) Hl Hb Hm Hn].
    assert (Hf : forall n x, n <= length h -> firstn n (h ++ x) = firstn n h)
      by (intros; now apply firstn_app_le).
    destruct lb; simpl label_batches; simpl gstep; rewrite ?app_nil_r.
    - (* LBatch *)
      destruct (uniq_keys (keys b) && negb (Nat.eqb (length b) 0)); [|discriminate].
      injection Hs as <-. right. constructor; simpl; auto.
      + rewrite app_length; simpl; lia.
      + intros k. rewrite Hf by lia. auto.
      + intros k. rewrite Hf by lia. auto.
      + intros k. rewrite Hf by lia. auto.
    - (* LIngest *)
      destruct (merger s); try discriminate. injection Hs as <-.
      right. constructor; simpl; auto.
      + lia.
      + intros k. rewrite firstn_all. rewrite <- (inv_view _ _ _ _ _ HI k).
        unfold dirty. now rewrite <- app_assoc.
    - (* LSwap *)
      destruct (merger s) as [|mb ml|] eqn:Em; try discriminate.
      destruct (_ || _); [|discriminate].
      injection Hs as <-. right. constructor; simpl; auto.
      intros k. rewrite <- (Hm k), !sget_app. apply swap_mid_view.
      pose proof (inv_mcap _ _ _ _ _ HI) as Hc. now rewrite Em in Hc.
    - (* LHandover *)
      destruct (merger s); try discriminate.
      destruct (base s) eqn:Eb, (mid s) eqn:Emid;
        try (injection Hs as <-; right; apply (pinv_same m0 h s); simpl; auto; fail).
      destruct (has_ll c); injection Hs as <-; right; [|apply (pinv_same m0 h s); simpl; auto].
      constructor; simpl; try discriminate.
      + lia.
      + exact Hl.
      + intros k. rewrite <- (Hm k). simpl. now rewrite app_nil_r.
      + intros k. rewrite <- (Hm k). simpl. now rewrite app_nil_r.
    - (* LPBegin *)
      destruct (persister s); try discriminate.
      destruct (base s) eqn:Eb; try discriminate.
      destruct (has_ll c); try discriminate. injection Hs as <-.
      right. apply (pinv_same m0 h s); simpl; auto.
    - (* LPPublish *)
      destruct (persister s); try discriminate.
      destruct (base s) as [b|] eqn:Eb; try discriminate.
      destruct (publish_ok fm b (ll s) ll') eqn:G; [|discriminate].
      injection Hs as <-. pose proof (publish_ok_spec fm _ _ _ G) as Hp.
      right. constructor; simpl; try lia; auto.
      + intros k. now rewrite Hp, <- (Hb k).
      + intros k. now rewrite Hp, <- (Hb k).
      + intros k. rewrite <- (Hm k), !sget_app. apply sget_ext, Hp.
    - (* LPFail *)
      destruct (persister s); try discriminate. injection Hs as <-.
      right. apply (pinv_same m0 h s); simpl; auto.
    - (* LSnap *)
      injection Hs as <-. right. apply (pinv_same m0 h s); simpl; auto.
    - (* LClose *)
      injection Hs as <-. left. reflexivity.
  Qed.

  Lemma grun_closed c s0 n g0 ls s g :
    grun c s0 n g0 ls = Some (s, g) -> closed s0 = true -> closed s = true.
  Proof.
    destruct ls as [|lb r]; simpl; [now intros [= <- <-]|].
    intros H Hc. now rewrite step_closed in H.
  Qed.

  Lemma grun_pinv_from c m0 ls : forall h s0 g0 s g,
    InvOpen fm c m0 h s0 -> PInv m0 h s0 g0 ->
    grun c s0 (length h) g0 ls = Some (s, g) -> closed s = false ->
    PInv m0 (h ++ batches ls) s g.
  Proof.
    induction ls as [|lb r IH]; intros h s0 g0 s g HI HP Hr Hcl; simpl in Hr.
    - injection Hr as <- <-. simpl. now rewrite app_nil_r.
    - destruct (step c s0 lb) as [s'|] eqn:Es; [|discriminate].
      destruct (closed s') eqn:Ecl'; [now rewrite (grun_closed _ _ _ _ _ _ _ Hr Ecl') in Hcl|].
      destruct (step_inv fm c m0 h s0 lb s' (or_intror HI) Es) as [?|HI']; [congruence|].
      destruct (step_pinv c m0 h s0 g0 lb s' HI HP Es) as [?|HP']; [congruence|].
      rewrite batches_cons, app_assoc. apply (IH _ s' _ _ _ HI' HP'); [|exact Hcl].
      now rewrite app_length.
  Qed.

  Theorem grun_pinv c l ls s g :
    grun c (init l) 0 ghost0 ls = Some (s, g) -> closed s = false ->
    PInv (llv l) (batches ls) s g.
  Proof.
    apply (grun_pinv_from c (llv l) ls [] (init l) ghost0 s g); [|apply pinv_init].
    now destruct (inv_init fm c l).
  Qed.

  (* the persisted prefix never shrinks: ga only ever moves to gb >= ga *)
  Lemma gstep_monotone c m0 h s g lb :
    PInv m0 h s g -> ga g <= ga (gstep c s (length h) g lb).
  Proof.
    intros [[Hab _] _ _ _ _]. destruct lb; simpl; auto.
    destruct (base s), (mid s); auto. destruct (has_ll c); auto.
  Qed.
End WithMerge.
