(* OwnersProgressFacts.v -- PROGRESS of the ownership model: from every state a
   sequence of operations of the current code reaches, every operation of the
   current code runs to its end (no AddRef / DecRef of a released object, no
   reference given back that is not held, no root overwritten, no local left
   over), so the theorems about run hold for EVERY legal sequence, without the
   premise that run succeeds.  Invariant and rules: OwnersProgressRules.v,
   OwnersProgressLoops.v. *)
From Coq Require Import List Arith Bool Lia.
From Moss Require Import Owners OwnersFacts OwnersProgress OwnersProgressRules OwnersProgressLoops.
Import ListNotations.

Lemma ok_snap_cached : ok op_snap_cached.
Proof. start. unfold op_snap_cached. rgo; fin. Qed.

Lemma ok_store_snap : ok op_store_snap.
Proof. start. unfold op_store_snap. rgo; fin. Qed.

Lemma ok_close_h i : ok (op_close_h i).
Proof. start. unfold op_close_h. rgo; fin. Qed.

Lemma ok_snap_fresh : ok op_snap_fresh.
Proof. start. unfold op_snap_fresh. gof. Qed.

Lemma ok_coll_get d : ok (op_coll_get d).
Proof. start. unfold op_coll_get. gof. Qed.

Lemma ok_child_snap a b : ok (op_child_snap a b).
Proof. start. unfold op_child_snap. gof. Qed.

Lemma ok_iter_start a ik : ok (op_iter_start a ik).
Proof. start. unfold op_iter_start. gof. Qed.

Lemma ok_iter_seek a sk : ok (op_iter_seek a sk).
Proof. start. unfold op_iter_seek. gof. Qed.

Lemma ok_batch nc : ok (op_batch nc).
Proof. start. unfold op_batch. gof. Qed.

Lemma ok_drop_children : ok op_drop_children.
Proof. start. unfold op_drop_children. gof. Qed.

Lemma ok_persist_begin : ok op_persist_begin.
Proof. start. unfold op_persist_begin. gof. Qed.

Lemma ok_persist_publish ca : ok (op_persist_publish ca).
Proof. start. unfold op_persist_publish. gof. Qed.

Lemma ok_coll_close : ok op_coll_close.
Proof. start. unfold op_coll_close, coll_close_body. gof. Qed.

Lemma ok_store_close : ok op_store_close.
Proof. start. unfold op_store_close, store_close_body. gof. Qed.

Lemma ok_prev a fd n1 n2 n3 : ok (op_prev a fd n1 n2 n3).
Proof. start. unfold op_prev. gof. Qed.

Lemma ok_merger_ingest : ok op_merger_ingest.
Proof. start. unfold op_merger_ingest. gof. Qed.

Lemma ok_merger_swap b : ok (op_merger_swap b).
Proof. start. unfold op_merger_swap. gof. Qed.

Lemma ok_persist_run m : current_code (OpPersistRun m) = true -> ok (op_persist_run m).
Proof.
  intros C. destruct m; try discriminate C; clear C; start; unfold op_persist_run, compact_full; gof.
Qed.

Ltac do_refresh :=
  match goal with
  | |- runs (refresh_kids (kids_of ?b ?s) 0 (first_ref ?w ?s)) ?s _ =>
      let Ef := fresh "Ef" in
      destruct (first_ref w s) eqn:Ef; [derive Ef|];
      withG ltac:(fun HG =>
        match goal with
        | Hb : hask _ b KStack |- _ =>
            eapply (runs_refresh_kids (kids_of b s) 0 _ b (refs_of b s) (kids_of b s) s _ HG);
            [ norm; reflexivity
            | apply (holds_of s b KStack HG Hb)
            | apply incl_refl
            | norm; assumption
            | norm; first [assumption | exact I]
            | let Kx := fresh "Kx" in let HG' := fresh "HG" in let Hb' := fresh "Hb" in
              intros ? ? ? ? HG' Kx Hb'; norm; tr_kext Kx; clear HG ]
        end)
  end.

Lemma ok_merger_handover : ok op_merger_handover.
Proof.
  start. unfold op_merger_handover. gof.
  - do_setrefs. go; do_refresh; gof.
  - do_setrefs. gof.
Qed.

Lemma Good_init : Good init.
Proof.
  split; [|split].
  - split; [exact Inv_init|split].
    + intros a ob H. destruct a as [|[|a]]; simpl in H.
      * inversion H; subst. apply ty_obj_empty; reflexivity.
      * inversion H; subst. split; [|split]; simpl.
        -- intros r [<-|[]]. split; [discriminate|]. exists true. eexists. split; [reflexivity|auto].
        -- intros c0 [].
        -- discriminate.
      * destruct a; discriminate.
    + split.
      * intros sl o E. destruct sl; simpl in E; try discriminate; inversion E; subst;
          eexists; eexists; (split; [reflexivity|split; reflexivity]).
      * intros hd [].
  - reflexivity.
  - split; intros _; simpl; auto.
Qed.

(* every operation of the current code, from every good state *)
Theorem step_progress o st : Good st -> current_code o = true ->
  exists st', step o st = Some st' /\ Good st'.
Proof.
  intros HG C. revert st HG. change (ok (body o)).
  destruct o; try discriminate C; simpl body;
    auto using ok_snap_cached, ok_snap_fresh, ok_coll_get, ok_child_snap, ok_store_snap, ok_prev,
      ok_iter_start, ok_iter_seek, ok_close_h, ok_batch, ok_drop_children, ok_merger_ingest,
      ok_merger_swap, ok_merger_handover, ok_persist_begin, ok_persist_run, ok_persist_publish,
      ok_coll_close, ok_store_close.
Qed.

(* the states legal use reaches *)
Inductive reachable : state -> Prop :=
  | reach_init : reachable init
  | reach_step : forall st o st', reachable st -> legal st o = true -> step o st = Some st' ->
                                  reachable st'.

Lemma reachable_good st : reachable st -> Good st.
Proof.
  induction 1 as [|st o st' R IH L E]; [exact Good_init|].
  destruct (step_progress o st IH L) as [s [E' Hs]]. congruence.
Qed.

Theorem legal_step_never_faults : forall st o,
  reachable st -> legal st o = true -> exists st', step o st = Some st'.
Proof.
  intros st o R L. destruct (step_progress o st (reachable_good st R) L) as [s [E _]]. eauto.
Qed.

Lemma legal_seq_from_runs ops : forall st, Good st -> reachable st -> legal_seq_from st ops = true ->
  exists st', run_from st ops = Some st' /\ Good st' /\ reachable st'.
Proof.
  induction ops as [|o r IH]; intros st HG R L; simpl in *.
  - eauto.
  - apply andb_prop in L. destruct L as [L1 L2].
    destruct (step_progress o st HG L1) as [s [E Hs]]. rewrite E in *.
    apply IH; auto. eapply reach_step; eauto.
Qed.

Theorem legal_use_never_faults : forall ops, legal_seq ops = true -> exists st, run ops = Some st.
Proof.
  intros ops L. destruct (legal_seq_from_runs ops init Good_init reach_init L) as [st [E _]]. eauto.
Qed.

Lemma current_legal_seq ops : forall st, Good st -> forallb current_code ops = true ->
  legal_seq_from st ops = true.
Proof.
  induction ops as [|o r IH]; intros st HG F; simpl in *; auto.
  apply andb_prop in F. destruct F as [F1 F2]. unfold legal. rewrite F1. simpl.
  destruct (step_progress o st HG F1) as [s [E Hs]]. rewrite E. auto.
Qed.
Lemma legal_seq_current ops : forall st, Good st -> legal_seq_from st ops = true ->
  forallb current_code ops = true.
Proof.
  induction ops as [|o r IH]; intros st HG L; simpl in *; auto.
  apply andb_prop in L. destruct L as [L1 L2]. unfold legal in L1. rewrite L1. simpl.
  destruct (step_progress o st HG L1) as [s [E Hs]]. rewrite E in L2. eauto.
Qed.

(* legal is what the caller controls: a sequence is legal iff each of its
   operations is one of the current code *)
Theorem legal_seq_iff ops : legal_seq ops = true <-> forallb current_code ops = true.
Proof.
  split; [apply legal_seq_current|apply current_legal_seq]; exact Good_init.
Qed.

(* the C15 statements for EVERY legal sequence: no premise that run succeeds *)
Theorem ownership_invariant_unconditional : forall ops, legal_seq ops = true ->
  exists st, run ops = Some st /\
    forall o, cnt_of (hp st) o = cn o (roots st) + cn o (allrefs (hp st)).
Proof.
  intros ops L. destruct (legal_use_never_faults ops L) as [st E]. exists st. split; auto.
  eapply ownership_invariant; eauto.
Qed.

Theorem no_dangling_reference_unconditional : forall ops, legal_seq ops = true ->
  exists st, run ops = Some st /\
    (forall o, In o (roots st) -> cnt_of (hp st) o > 0) /\
    (forall a ob r, nth_error (hp st) a = Some ob -> In r (orefs ob) ->
                    o_cnt ob > 0 /\ cnt_of (hp st) r > 0).
Proof.
  intros ops L. destruct (legal_use_never_faults ops L) as [st E]. exists st. split; auto.
  eapply no_dangling_reference; eauto.
Qed.

Theorem handle_data_alive_unconditional : forall ops, legal_seq ops = true ->
  exists st, run ops = Some st /\
    forall hd r o, In hd (handles st) -> In r (hrefs hd) -> reach (hp st) r o ->
      cnt_of (hp st) o > 0.
Proof.
  intros ops L. destruct (legal_use_never_faults ops L) as [st E]. exists st. split; auto.
  eapply handle_data_alive; eauto.
Qed.

Theorem all_closed_all_released_unconditional : forall ops, legal_seq ops = true ->
  exists st, run ops = Some st /\
    (all_closed st ->
     (forall o, cnt_of (hp st) o = 0) /\ open_fds st = [] /\ mappings st = 0).
Proof.
  intros ops L. destruct (legal_use_never_faults ops L) as [st E]. exists st. split; auto.
  intros AC. eapply all_closed_all_released_current_code; eauto. apply legal_seq_iff. exact L.
Qed.

(* the hypotheses are satisfiable on a history that does something: a batch
   with a child collection, a merger and a persister round with a full
   compaction, snapshots and an iterator, everything closed *)
Definition w_progress : list op :=
  [OpBatch true; OpSnapFresh; OpMergerIngest; OpMergerSwap BrMerged; OpMergerHandover;
   OpPersistBegin; OpPersistRun PCompactFull; OpPersistPublish true; OpStoreSnap;
   OpIterStart 0 IKHeap; OpIterSeek 2 SKLower; OpChildSnap 0 0; OpPrev 1 true 1 1 1;
   OpCloseH 0; OpCloseH 0; OpCloseH 0; OpCloseH 0; OpCloseH 0; OpCollClose; OpStoreClose].
Example legal_seq_witness :
  legal_seq w_progress = true /\
  match run w_progress with Some st => all_closed_b st = true /\ length (hp st) > 10 | None => False end.
Proof. vm_compute. split; [reflexivity|split; [reflexivity|lia]]. Qed.

(* the strengthened invariant after every legal history: kinds of the heap,
   of what the roots and the handles hold, the temporaries of merger and persister *)
Theorem legal_use_keeps_kinds : forall ops, legal_seq ops = true ->
  exists st, run ops = Some st /\ Ty (hp st) /\ RootsTy st /\ Ctl st /\ hand st = [].
Proof.
  intros ops L. destruct (legal_seq_from_runs ops init Good_init reach_init L) as [st [E [[[_ [T R]] [H C]] _]]].
  exists st. auto.
Qed.

Print Assumptions step_progress.
Print Assumptions legal_step_never_faults.
Print Assumptions legal_use_never_faults.
Print Assumptions legal_seq_iff.
Print Assumptions ownership_invariant_unconditional.
Print Assumptions no_dangling_reference_unconditional.
Print Assumptions handle_data_alive_unconditional.
Print Assumptions all_closed_all_released_unconditional.
Print Assumptions legal_use_keeps_kinds.
