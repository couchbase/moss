(* IndexFacts.v — the segment key index never changes what a lookup returns.

   Main results:
     C14_window            the window returned by lookup / searchIndex
     C14_no_index_correct  plain binary searches = specifications
     C14_get_indep         findKeyPos does not depend on the index
     C14_start_indep       findStartKeyInclusivePos does not depend on the index
   plus the same three for EVERY well-formed (arbitrarily truncated) index
   (idx_wf), and "the fuel suffices" lemmas for the four loops. *)
From Coq Require Import List NArith Bool Arith Lia ZifyN ZifyNat.
From Moss Require Import Bytes BytesFacts Segment SegmentFacts Index.

Lemma blt_asym a b : blt a b -> blt b a -> False.
Proof. intros H1 H2. exact (bcmp_lt_irrefl a (bcmp_trans _ _ _ H1 H2)). Qed.

Lemma blt_not_ble a b : blt a b -> ble b a -> False.
Proof. unfold blt, ble. intros H1 H2. apply bcmp_lt_gt in H1. contradiction. Qed.

Lemma bltb_false_not_blt a b : bltb a b = false -> ~ blt a b.
Proof. intros H1 H2. apply bltb_true in H2. congruence. Qed.

Lemma blt_ble a b : blt a b -> ble a b.
Proof. unfold blt, ble. intros ->. discriminate. Qed.

Lemma ble_refl a : ble a a.
Proof. unfold ble. rewrite bcmp_refl. discriminate. Qed.

Lemma half_bounds i j : i < j -> i <= i + (j - i) / 2 /\ i + (j - i) / 2 < j.
Proof. lia. Qed.

Lemma half_eq i j : i < j -> i = i + (j - i) / 2 -> j = i + 1.
Proof. lia. Qed.

Lemma nth_error_skey ks p key :
  nth_error ks p = Some key <-> p < length ks /\ skey ks p = key.
Proof.
  split.
  - intro H. split; [apply nth_error_Some; congruence | now apply nth_error_nth].
  - intros [Hp <-]. now apply nth_error_nth'.
Qed.

Lemma asc_nth_mono ks : asc ks -> forall p q, p < q -> q < length ks ->
  blt (skey ks p) (skey ks q).
Proof.
  unfold skey. induction ks as [|a ks IH]; intros Ha p q Hpq Hq; simpl in Hq; [lia|].
  destruct q as [|q]; [lia|]. destruct p as [|p]; simpl.
  - eapply asc_head_lt; eauto. apply nth_In. lia.
  - apply IH; [eapply asc_tail; eauto | lia | lia].
Qed.

Lemma asc_nth_lt_inv ks : asc ks -> forall p q, p < length ks -> q < length ks ->
  blt (skey ks p) (skey ks q) -> p < q.
Proof.
  intros Ha p q Hp Hq H. destruct (lt_eq_lt_dec p q) as [[Hlt|Heq]|Hgt]; auto; exfalso.
  - subst. exact (bcmp_lt_irrefl _ H).
  - eapply blt_asym; eauto. apply asc_nth_mono; auto.
Qed.

Lemma asc_nth_inj ks : asc ks -> forall p q, p < length ks -> q < length ks ->
  skey ks p = skey ks q -> p = q.
Proof.
  intros Ha p q Hp Hq H. destruct (lt_eq_lt_dec p q) as [[Hlt|Heq]|Hgt]; auto; exfalso.
  - apply (asc_nth_mono ks Ha p q) in Hlt; auto. rewrite H in Hlt. exact (bcmp_lt_irrefl _ Hlt).
  - apply (asc_nth_mono ks Ha q p) in Hgt; auto. rewrite H in Hgt. exact (bcmp_lt_irrefl _ Hgt).
Qed.

(* everything left of a key <= probe is < probe *)
Lemma left_ok ks key a : asc ks -> a < length ks -> ble (skey ks a) key ->
  forall p, p < a -> blt (skey ks p) key.
Proof.
  intros Ha Hlen Hle p Hp. eapply bcmp_lt_le_trans; [|exact Hle]. apply asc_nth_mono; auto.
Qed.

(* everything from a key > probe on is > probe *)
Lemma right_ok ks key b : asc ks -> b < length ks -> blt key (skey ks b) ->
  forall p, b <= p -> p < length ks -> blt key (skey ks p).
Proof.
  intros Ha Hlen Hlt p Hp Hpn. destruct (Nat.eq_dec b p) as [->|Hne]; auto.
  eapply bcmp_trans; [exact Hlt|]. apply asc_nth_mono; auto. lia.
Qed.

(* everything strictly right of a key >= probe is > probe *)
Lemma right_ok_strict ks key b : asc ks -> b < length ks -> ble key (skey ks b) ->
  forall p, b < p -> p < length ks -> blt key (skey ks p).
Proof.
  intros Ha Hlen Hle p Hp Hpn. eapply bcmp_le_lt_trans; [exact Hle|]. apply asc_nth_mono; auto.
Qed.

Lemma lower_bound_cons k ks key :
  lower_bound (k :: ks) key =
  if bltb k key then S (lower_bound ks key) else lower_bound ks key.
Proof. unfold lower_bound. simpl. destruct (bltb k key); reflexivity. Qed.

Lemma lower_bound_le ks key : lower_bound ks key <= length ks.
Proof.
  induction ks as [|k ks IH]; [unfold lower_bound; simpl; lia|].
  rewrite lower_bound_cons. simpl. destruct (bltb k key); lia.
Qed.

Lemma lower_bound_none ks key :
  (forall x, In x ks -> bltb x key = false) -> lower_bound ks key = 0.
Proof.
  induction ks as [|k ks IH]; intros H; [reflexivity|].
  rewrite lower_bound_cons, (H k) by (simpl; auto). apply IH. intros x Hx. apply H. simpl; auto.
Qed.

Lemma lower_bound_tail_zero k ks key :
  asc (k :: ks) -> bltb k key = false -> lower_bound ks key = 0.
Proof.
  intros Ha Hk. apply lower_bound_none. intros x Hx.
  destruct (bltb x key) eqn:E; auto. exfalso.
  apply bltb_true in E. apply (bltb_false_not_blt _ _ Hk).
  eapply bcmp_trans; [|exact E]. eapply asc_head_lt; eauto.
Qed.

(* the characteristic property: position p is below the bound iff its key
   is smaller than the probe *)
Lemma lower_bound_spec ks key : asc ks -> forall p, p < length ks ->
  (p < lower_bound ks key <-> blt (skey ks p) key).
Proof.
  unfold skey. induction ks as [|k ks IH]; intros Ha p Hp; simpl in Hp; [lia|].
  rewrite lower_bound_cons. destruct (bltb k key) eqn:Ek.
  - destruct p as [|p]; simpl.
    + split; [intros _; apply bltb_true; auto | lia].
    + rewrite <- IH; [lia | eapply asc_tail; eauto | lia].
  - rewrite (lower_bound_tail_zero k ks key Ha Ek).
    split; [lia|]. intros H. exfalso. destruct p as [|p]; simpl in H.
    + eapply bltb_false_not_blt; eauto.
    + apply (bltb_false_not_blt _ _ Ek). eapply bcmp_trans; [|exact H].
      eapply asc_head_lt; eauto. apply nth_In. lia.
Qed.

Lemma lower_bound_unique ks key L : asc ks -> L <= length ks ->
  (forall p, p < L -> blt (skey ks p) key) ->
  (forall p, L <= p -> p < length ks -> ~ blt (skey ks p) key) ->
  lower_bound ks key = L.
Proof.
  intros Ha HL Hlo Hhi. pose proof (lower_bound_le ks key) as Hle.
  destruct (lt_eq_lt_dec (lower_bound ks key) L) as [[Hlt|Heq]|Hgt]; auto; exfalso.
  - assert (Hb : blt (skey ks (lower_bound ks key)) key) by (apply Hlo; auto).
    apply lower_bound_spec in Hb; auto; lia.
  - apply (Hhi L); try lia. apply lower_bound_spec; auto. lia.
Qed.

Lemma lower_bound_at ks h : asc ks -> h < length ks -> lower_bound ks (skey ks h) = h.
Proof.
  intros Ha Hh. apply lower_bound_unique; auto; try lia.
  - intros p Hp. apply asc_nth_mono; auto.
  - intros p Hp Hpn Hb. apply asc_nth_lt_inv in Hb; auto. lia.
Qed.

(* lower_bound is Go's "first position whose key is >= probe" *)
Lemma lower_bound_first_geq ks key : asc ks -> lower_bound ks key = first_geq ks key.
Proof.
  induction ks as [|k ks IH]; intros Ha; [reflexivity|].
  rewrite lower_bound_cons. simpl. destruct (bltb k key) eqn:Ek.
  - f_equal. apply IH. eapply asc_tail; eauto.
  - eapply lower_bound_tail_zero; eauto.
Qed.

Lemma position_some ks key p : position ks key = Some p ->
  p < length ks /\ skey ks p = key.
Proof.
  unfold skey. revert p; induction ks as [|k ks IH]; intros p; simpl; [discriminate|].
  destruct (beqb k key) eqn:E.
  - intros [= <-]. apply beqb_true in E. split; [lia|auto].
  - destruct (position ks key) as [q|]; simpl; [|discriminate].
    intros [= <-]. destruct (IH q eq_refl) as [H1 H2]. split; [lia|auto].
Qed.

Lemma position_nth ks p : asc ks -> p < length ks -> position ks (skey ks p) = Some p.
Proof.
  unfold skey. intros Ha. apply asc_NoDup in Ha. revert p.
  induction ks as [|k ks IH]; intros p Hp; simpl in Hp; [lia|].
  inversion Ha as [|? ? Hnin Hnd]; subst. destruct p as [|p]; simpl.
  - now rewrite beqb_refl.
  - destruct (beqb k (nth p ks [])) eqn:E.
    + apply beqb_true in E. exfalso. apply Hnin. rewrite E. apply nth_In. lia.
    + rewrite IH; auto. lia.
Qed.

Lemma position_iff ks key p : asc ks ->
  (position ks key = Some p <-> nth_error ks p = Some key).
Proof.
  intros Ha. rewrite nth_error_skey. split.
  - apply position_some.
  - intros [Hp <-]. now apply position_nth.
Qed.

(* [l, r) is a sound search window for key: everything left of it is smaller
   than the probe, everything from r on is greater. *)
Definition window_ok (ks : list bytes) (key : bytes) (l r : nat) : Prop :=
  l <= r /\ r <= length ks /\
  (forall p, p < l -> blt (skey ks p) key) /\
  (forall p, r <= p -> p < length ks -> blt key (skey ks p)).

Lemma window_full ks key : window_ok ks key 0 (length ks).
Proof. repeat split; intros; lia. Qed.

Lemma window_present ks key l r p : window_ok ks key l r ->
  p < length ks -> skey ks p = key -> l <= p < r.
Proof.
  intros (Hlr & Hr & Hlo & Hhi) Hp Hk.
  destruct (lt_dec p l) as [H1|H1].
  { exfalso. apply Hlo in H1. rewrite Hk in H1. exact (bcmp_lt_irrefl _ H1). }
  destruct (le_dec r p) as [H2|H2].
  { exfalso. apply Hhi in H2; auto. rewrite Hk in H2. exact (bcmp_lt_irrefl _ H2). }
  lia.
Qed.

Lemma window_lower_bound ks key l r : asc ks -> window_ok ks key l r ->
  l <= lower_bound ks key <= r.
Proof.
  intros Ha (Hlr & Hr & Hlo & Hhi). split.
  - destruct l as [|l]; [lia|].
    assert (H : l < lower_bound ks key) by (apply lower_bound_spec; auto; lia). lia.
  - destruct (le_lt_dec (length ks) r) as [H|H].
    + pose proof (lower_bound_le ks key). lia.
    + destruct (le_lt_dec (lower_bound ks key) r) as [H1|H1]; auto. exfalso.
      apply lower_bound_spec in H1; auto. eapply blt_asym; [exact H1|]. apply Hhi; auto.
Qed.

Lemma window_empty_absent ks key l r : window_ok ks key l r -> r <= l ->
  position ks key = None.
Proof.
  intros Hw Hrl. destruct (position ks key) as [p|] eqn:E; [|reflexivity].
  apply position_some in E as [E1 E2]. pose proof (window_present _ _ _ _ _ Hw E1 E2). lia.
Qed.

Lemma window_empty_bound ks key l r : asc ks -> window_ok ks key l r -> r <= l ->
  lower_bound ks key = l.
Proof. intros Ha Hw Hrl. pose proof (window_lower_bound ks key l r Ha Hw). lia. Qed.

(* the fuel j - i is enough, whatever the list (no hypothesis) *)
Lemma get_loop_fuel ks key : forall fuel i j, j - i <= fuel ->
  get_loop ks key fuel i j <> None.
Proof.
  induction fuel as [|f IH]; intros i j Hf; cbn [get_loop];
    destruct (Nat.leb_spec j i) as [Hji|Hij]; try discriminate; [lia|].
  cbv zeta. destruct (half_bounds i j Hij) as [H1 H2].
  destruct (bcmp _ key); [discriminate | apply IH; lia | apply IH; lia].
Qed.

Lemma start_loop_fuel ks key : forall fuel i j, j - i <= fuel ->
  start_loop ks key fuel i j <> None.
Proof.
  induction fuel as [|f IH]; intros i j Hf; cbn [start_loop];
    destruct (Nat.leb_spec j i) as [Hji|Hij]; try discriminate; [lia|].
  cbv zeta. destruct (half_bounds i j Hij) as [H1 H2].
  destruct (bcmp _ key); [discriminate | apply IH; lia | apply IH; lia].
Qed.

(* narrowing a window at a probed position *)
Lemma window_narrow_left ks key i j h : asc ks -> window_ok ks key i j ->
  i <= h < j -> bcmp (skey ks h) key = Lt -> window_ok ks key (h + 1) j.
Proof.
  intros Ha (Hlr & Hr & Hlo & Hhi) Hh E. repeat split; auto; try lia.
  intros p Hp. destruct (Nat.eq_dec p h) as [->|Hne]; [exact E|].
  apply (left_ok ks key h); auto; try lia. apply blt_ble. exact E.
Qed.

Lemma window_narrow_right ks key i j h : asc ks -> window_ok ks key i j ->
  i <= h < j -> bcmp (skey ks h) key = Gt -> window_ok ks key i h.
Proof.
  intros Ha (Hlr & Hr & Hlo & Hhi) Hh E. repeat split; auto; try lia.
  intros p Hp Hpn. apply (right_ok ks key h); auto; try lia. apply bcmp_gt_lt. exact E.
Qed.

Lemma get_loop_ok ks key : asc ks -> forall fuel i j, j - i <= fuel ->
  window_ok ks key i j -> get_loop ks key fuel i j = Some (position ks key).
Proof.
  intros Ha. induction fuel as [|f IH]; intros i j Hf Hw; cbn [get_loop];
    destruct (Nat.leb_spec j i) as [Hji|Hij]; try lia.
  1, 2: now rewrite (window_empty_absent ks key i j Hw Hji).
  cbv zeta. destruct (half_bounds i j Hij) as [H1 H2].
  set (h := i + (j - i) / 2) in *.
  assert (Hhn : h < length ks) by (destruct Hw as (_ & Hr & _); lia).
  destruct (bcmp (skey ks h) key) eqn:E.
  - apply bcmp_eq in E. subst key. now rewrite position_nth.
  - apply IH; [lia|]. eapply window_narrow_left; eauto.
  - apply IH; [lia|]. eapply window_narrow_right; eauto.
Qed.

Lemma start_loop_ok ks key : asc ks -> forall fuel i j, j - i <= fuel ->
  window_ok ks key i j -> start_loop ks key fuel i j = Some (lower_bound ks key).
Proof.
  intros Ha. induction fuel as [|f IH]; intros i j Hf Hw; cbn [start_loop];
    destruct (Nat.leb_spec j i) as [Hji|Hij]; try lia.
  1, 2: now rewrite (window_empty_bound ks key i j Ha Hw Hji).
  cbv zeta. destruct (half_bounds i j Hij) as [H1 H2].
  set (h := i + (j - i) / 2) in *.
  assert (Hhn : h < length ks) by (destruct Hw as (_ & Hr & _); lia).
  destruct (bcmp (skey ks h) key) eqn:E.
  - apply bcmp_eq in E. subst key. now rewrite lower_bound_at.
  - apply IH; [lia|]. eapply window_narrow_left; eauto.
  - apply IH; [lia|]. eapply window_narrow_right; eauto.
Qed.

(* a probe smaller than the first key is absent and has lower bound 0 *)
Lemma below_first_window ks key : asc ks -> 0 < length ks -> blt key (skey ks 0) ->
  window_ok ks key 0 0.
Proof.
  intros Ha Hn Hb. repeat split; try lia.
  intros p _ Hp. apply (right_ok ks key 0); auto. lia.
Qed.

(* findKeyPos / findStartKeyInclusivePos are correct for ANY sound window
   handed to them by searchIndex *)
Lemma find_key_pos_correct oidx ks key : asc ks ->
  (forall l r, search_index oidx (length ks) key = (l, r) -> window_ok ks key l r) ->
  find_key_pos oidx ks key = position ks key.
Proof.
  intros Ha Hw. unfold find_key_pos. destruct ks as [|k0 rest]; [reflexivity|].
  set (ks := k0 :: rest) in *.
  destruct (bltb key k0) eqn:E0.
  - apply bltb_true in E0. symmetry. apply (window_empty_absent ks key 0 0); [|lia].
    apply below_first_window; auto. simpl. lia.
  - destruct (search_index oidx (length ks) key) as [i j] eqn:W.
    specialize (Hw i j eq_refl).
    destruct (Nat.eqb_spec i j) as [Hij|Hij].
    + symmetry. apply (window_empty_absent ks key i j Hw). lia.
    + rewrite (get_loop_ok ks key Ha (j - i) i j); auto.
Qed.

Lemma find_start_pos_correct oidx ks key : asc ks ->
  (forall l r, search_index oidx (length ks) key = (l, r) -> window_ok ks key l r) ->
  find_start_pos oidx ks key = lower_bound ks key.
Proof.
  intros Ha Hw. unfold find_start_pos.
  destruct (search_index oidx (length ks) key) as [i j] eqn:W.
  specialize (Hw i j eq_refl).
  destruct (Nat.eqb_spec i j) as [Hij|Hij].
  - symmetry. apply (window_empty_bound ks key i j Ha Hw). lia.
  - destruct (bltb key (skey ks 0)) eqn:E0.
    + apply bltb_true in E0.
      assert (Hn : 0 < length ks) by (destruct Hw as (? & ? & _); lia).
      pose proof (window_empty_bound ks key 0 0 Ha (below_first_window ks key Ha Hn E0)) as H0.
      pose proof (window_lower_bound ks key i j Ha Hw). lia.
    + rewrite (start_loop_ok ks key Ha (j - i) i j); auto.
Qed.

Definition idx_wf (ks : list bytes) (idx : index) : Prop :=
  1 <= ix_hop idx /\
  ix_src idx = length ks /\
  forall t, t < length (ix_keys idx) ->
    t * ix_hop idx < length ks /\ ikey (ix_keys idx) t = skey ks (t * ix_hop idx).

(* fuel = numKeys suffices for lookup's loop, whatever the index *)
Lemma lookup_loop_fuel keys hop key : forall fuel i j, j - i <= fuel ->
  lookup_loop keys hop key fuel i j <> None.
Proof.
  induction fuel as [|f IH]; intros i j Hf; cbn [lookup_loop];
    destruct (Nat.leb_spec j i) as [Hji|Hij]; try discriminate; [lia|].
  cbv zeta. destruct (half_bounds i j Hij) as [H1 H2].
  destruct (bcmp _ key); [discriminate | | apply IH; lia].
  destruct (Nat.eqb_spec i (i + (j - i) / 2)) as [He|Hne]; [discriminate|].
  apply IH; lia.
Qed.

Lemma lookup_fuel idx key :
  lookup_loop (ix_keys idx) (ix_hop idx) key
              (length (ix_keys idx)) 0 (length (ix_keys idx)) <> None.
Proof. apply lookup_loop_fuel. lia. Qed.

Section LookupLoop.
  Variables (ks : list bytes) (key : bytes) (keys : list bytes) (hop : nat).
  Hypothesis Hasc : asc ks.
  Hypothesis Hhop : 1 <= hop.
  Hypothesis Hkeys : forall t, t < length keys ->
    t * hop < length ks /\ ikey keys t = skey ks (t * hop).
  (* the early return "last indexed key < key" was not taken *)
  Hypothesis Hlast : ble key (ikey keys (length keys - 1)).

  Lemma lookup_loop_ok : forall fuel i j l r,
    i < j -> j <= length keys ->
    ble (ikey keys i) key ->
    (j < length keys -> blt key (ikey keys j)) ->
    lookup_loop keys hop key fuel i j = Some (l, r) ->
    window_ok ks key l r.
  Proof.
    induction fuel as [|f IH]; intros i j l r Hij Hj Hi Hjk; cbn [lookup_loop];
      destruct (Nat.leb_spec j i) as [Hji|_]; try lia; try discriminate.
    cbv zeta. destruct (half_bounds i j Hij) as [H1 H2].
    set (h := i + (j - i) / 2) in *.
    destruct (Hkeys h ltac:(lia)) as [Hhn Hhk].
    destruct (bcmp (ikey keys h) key) eqn:E.
    - (* direct hit *)
      intros [= <- <-]. apply bcmp_eq in E. rewrite Hhk in E. subst key.
      repeat split; try lia.
      + intros p Hp. apply asc_nth_mono; auto.
      + intros p Hp Hpn. apply asc_nth_mono; auto. lia.
    - destruct (Nat.eqb_spec i h) as [Heq|Hne].
      + (* break: i = h, hence j = i + 1 *)
        intros [= <- <-]. apply half_eq in Heq; auto.
        destruct (Nat.eq_dec j (length keys)) as [Hjm|Hjm].
        * exfalso. replace (length keys - 1) with h in Hlast by lia.
          eapply blt_not_ble; [exact E | exact Hlast].
        * destruct (Hkeys j ltac:(lia)) as [Hjn Hjkey].
          destruct (Hkeys i ltac:(lia)) as [Hin Hikey].
          specialize (Hjk ltac:(lia)). rewrite Hjkey in Hjk. rewrite Hikey in Hi.
          assert (Hmul : i * hop <= j * hop) by (apply Nat.mul_le_mono_r; lia).
          repeat split; try lia.
          -- apply left_ok; auto.
          -- apply right_ok; auto.
      + apply IH; auto; try lia. apply blt_ble. exact E.
    - assert (Hih : i <> h).
      { intros Heq. apply bcmp_gt_lt in E. rewrite <- Heq in E.
        eapply blt_not_ble; [exact E | exact Hi]. }
      apply IH; auto; try lia. intros _. apply bcmp_gt_lt. exact E.
  Qed.
End LookupLoop.

(* the window of segmentKeysIndex.lookup is sound for every well-formed,
   arbitrarily truncated index *)
Lemma lookup_window ks key idx l r : asc ks -> idx_wf ks idx ->
  lookup idx key = (l, r) -> window_ok ks key l r.
Proof.
  intros Ha (Hhop & Hsrc & Hkeys). unfold lookup. rewrite Hsrc.
  destruct (Nat.ltb_spec (length (ix_keys idx)) 2) as [Hn|Hn].
  { intros [= <- <-]. apply window_full. }
  destruct (Hkeys 0 ltac:(lia)) as [H0n H0k]. simpl in H0n, H0k.
  destruct (bltb key (ikey (ix_keys idx) 0)) eqn:E0.
  { intros [= <- <-]. apply bltb_true in E0. rewrite H0k in E0.
    apply below_first_window; auto. }
  apply bltb_false, bleb_true in E0.
  destruct (Hkeys (length (ix_keys idx) - 1) ltac:(lia)) as [HLn HLk].
  destruct (bltb (ikey (ix_keys idx) (length (ix_keys idx) - 1)) key) eqn:EL.
  { intros [= <- <-]. apply bltb_true in EL. rewrite HLk in EL.
    repeat split; try lia.
    intros p Hp. apply (left_ok ks key ((length (ix_keys idx) - 1) * ix_hop idx)); auto.
    apply blt_ble. exact EL. }
  apply bltb_false, bleb_true in EL.
  destruct (lookup_loop _ _ key _ 0 _) as [[l' r']|] eqn:EW.
  - intros [= <- <-].
    eapply (lookup_loop_ok ks key (ix_keys idx) (ix_hop idx) Ha Hhop Hkeys EL); [| | | |exact EW];
      auto; lia.
  - intros [= <- <-]. apply window_full.
Qed.

Definition binv (ks : list bytes) (b : builder) (curr : nat) : Prop :=
  idx_wf ks (bd_idx b) /\ curr = length (ix_keys (bd_idx b)) * ix_hop (bd_idx b).

Lemma add_hop b i key ok b' : add b i key = (ok, b') ->
  ix_hop (bd_idx b') = ix_hop (bd_idx b).
Proof.
  unfold add. destruct (_ <=? _)%N; [intros [= <- <-]; auto|].
  destruct (_ <? _)%N; [intros [= <- <-]; auto|].
  destruct (negb _); intros [= <- <-]; auto.
Qed.

Lemma ikey_app_old keys k t : t < length keys -> ikey (keys ++ [k]) t = ikey keys t.
Proof. intros H. unfold ikey. apply app_nth1. auto. Qed.

Lemma ikey_app_new keys k : ikey (keys ++ [k]) (length keys) = k.
Proof. unfold ikey. rewrite app_nth2, Nat.sub_diag; auto. Qed.

(* add at the cursor position: either refuses and changes nothing, or appends
   the key; "accepts without appending" (keyIdx % hop != 0) cannot happen *)
Lemma add_inv ks b curr key ok b' :
  binv ks b curr -> nth_error ks curr = Some key -> add b curr key = (ok, b') ->
  (ok = false /\ b' = b) \/
  (ok = true /\ binv ks b' (curr + ix_hop (bd_idx b'))).
Proof.
  intros ((Hhop & Hsrc & Hkeys) & Hcurr) [Hc Hnth]%nth_error_skey. unfold add.
  destruct (_ <=? _)%N; [intros [= <- <-]; auto|].
  destruct (_ <? _)%N; [intros [= <- <-]; auto|].
  assert (Hmod : curr mod ix_hop (bd_idx b) = 0) by (subst curr; apply Nat.mod_mul; lia).
  rewrite Hmod. simpl. intros [= <- <-]. right. split; auto.
  unfold binv, idx_wf. simpl. rewrite app_length. simpl. repeat split; auto.
  - destruct (Nat.eq_dec t (length (ix_keys (bd_idx b)))) as [->|Hne]; [lia|].
    apply Hkeys. lia.
  - destruct (Nat.eq_dec t (length (ix_keys (bd_idx b)))) as [->|Hne].
    + rewrite ikey_app_new, <- Hcurr. auto.
    + rewrite ikey_app_old by lia. apply Hkeys. lia.
  - lia.
Qed.

Lemma build_loop_wf ks : forall fuel b curr b',
  binv ks b curr -> build_loop ks fuel b curr = Some b' -> idx_wf ks (bd_idx b').
Proof.
  induction fuel as [|f IH]; intros b curr b' Hb; cbn [build_loop];
    destruct (nth_error ks curr) as [key|] eqn:En;
    try discriminate; try (intros [= <-]; exact (proj1 Hb)).
  destruct (add b curr key) as [ok b1] eqn:A.
  destruct (add_inv ks b curr key ok b1 Hb En A) as [[-> ->]|[-> Hb1]]; simpl.
  - intros [= <-]. exact (proj1 Hb).
  - destruct (_ <=? _).
    + intros [= <-]. exact (proj1 Hb1).
    + apply IH. exact Hb1.
Qed.

(* fuel = Len() suffices for the build loop whenever hop >= 1 *)
Lemma build_loop_fuel ks : forall fuel b curr,
  1 <= ix_hop (bd_idx b) -> length ks - curr <= fuel ->
  build_loop ks fuel b curr <> None.
Proof.
  induction fuel as [|f IH]; intros b curr Hhop Hf; cbn [build_loop];
    destruct (nth_error ks curr) as [key|] eqn:En; try discriminate;
    apply nth_error_skey in En as [Hc _]; [lia|].
  destruct (add b curr key) as [ok b1] eqn:A. pose proof (add_hop _ _ _ _ _ A) as Hh.
  destruct ok; simpl; [|discriminate].
  destruct (Nat.leb_spec (length ks) (curr + ix_hop (bd_idx b1))); [discriminate|].
  apply IH; lia.
Qed.

Lemma new_index_binv quota ks avg b :
  new_index quota (length ks) avg = Some b -> binv ks b 0.
Proof.
  unfold new_index. destruct (_ =? _)%N; [discriminate|]. intros [= <-].
  unfold binv, idx_wf. simpl. repeat split; try lia.
  generalize (N.of_nat (length ks) / (quota / (avg + 4)))%N. intros n. lia.
Qed.

Lemma build_index_wf quota min_key_bytes ks idx :
  build_index quota min_key_bytes ks = Some idx -> idx_wf ks idx.
Proof.
  unfold build_index. destruct (_ <? _)%N; [discriminate|].
  destruct (_ =? _)%N; [discriminate|].
  destruct (new_index _ _ _) as [b|] eqn:Enew; [|discriminate].
  apply new_index_binv in Enew.
  destruct (build_loop ks (length ks) b 0) as [b'|] eqn:EL; intros [= <-].
  - eapply build_loop_wf; eauto.
  - exact (proj1 Enew).
Qed.

(* the fall-back branch of build_index is dead code *)
Lemma build_index_fuel quota ks avg b :
  new_index quota (length ks) avg = Some b ->
  build_loop ks (length ks) b 0 <> None.
Proof.
  intros H. apply new_index_binv in H. destruct H as [(Hhop & _) _].
  apply build_loop_fuel; auto. lia.
Qed.

Lemma search_index_window oidx ks key l r : asc ks ->
  (forall idx, oidx = Some idx -> idx_wf ks idx) ->
  search_index oidx (length ks) key = (l, r) -> window_ok ks key l r.
Proof.
  intros Ha Hwf. destruct oidx as [idx|]; simpl.
  - apply lookup_window; auto.
  - intros [= <- <-]. apply window_full.
Qed.

Lemma searches_correct oidx ks key : asc ks ->
  (forall idx, oidx = Some idx -> idx_wf ks idx) ->
  find_key_pos oidx ks key = position ks key /\
  find_start_pos oidx ks key = lower_bound ks key.
Proof.
  intros Ha Hwf.
  split; [apply find_key_pos_correct|apply find_start_pos_correct]; auto;
    intros l r; apply search_index_window; auto.
Qed.

(* the un-indexed searches are the specifications *)
Theorem C14_no_index_correct ks key : asc ks ->
  find_key_pos None ks key = position ks key /\
  find_start_pos None ks key = lower_bound ks key.
Proof. intros Ha. apply searches_correct; [exact Ha|discriminate]. Qed.
Print Assumptions C14_no_index_correct.

(* Everything one may rely on about the window (leftPos, rightPos): it lies
   inside the segment, all keys left of it are smaller than the probe, all
   keys from rightPos on are greater; hence a present key lies inside it and
   the start position (lower bound) lies in [leftPos, rightPos].  This holds
   uniformly, including the (0,0) early return (probe below the first key,
   lower bound 0), the truncated index and the direct hit. *)
Theorem C14_window quota min_key_bytes ks key idx l r :
  asc ks ->
  build_index quota min_key_bytes ks = Some idx ->
  lookup idx key = (l, r) ->
  l <= r /\ r <= length ks /\
  (forall p, p < l -> blt (skey ks p) key) /\
  (forall p, r <= p -> p < length ks -> blt key (skey ks p)) /\
  (forall p, nth_error ks p = Some key -> l <= p < r) /\
  l <= lower_bound ks key <= r.
Proof.
  intros Ha Hb Hl. apply build_index_wf in Hb.
  pose proof (lookup_window ks key idx l r Ha Hb Hl) as Hw.
  pose proof Hw as (H1 & H2 & H3 & H4).
  refine (conj H1 (conj H2 (conj H3 (conj H4 (conj _ (window_lower_bound ks key l r Ha Hw)))))).
  intros p [Hp Hk]%nth_error_skey. exact (window_present _ _ _ _ _ Hw Hp Hk).
Qed.
Print Assumptions C14_window.

(* the same for any well-formed index, however truncated *)
Theorem C14_window_wf ks key idx l r :
  asc ks -> idx_wf ks idx -> lookup idx key = (l, r) -> window_ok ks key l r.
Proof. apply lookup_window. Qed.
Print Assumptions C14_window_wf.

Theorem C14_get_indep quota min_key_bytes ks key : asc ks ->
  find_key_pos (build_index quota min_key_bytes ks) ks key = position ks key.
Proof. intros Ha. apply searches_correct; auto. intros idx. apply build_index_wf. Qed.
Print Assumptions C14_get_indep.

Theorem C14_start_indep quota min_key_bytes ks key : asc ks ->
  find_start_pos (build_index quota min_key_bytes ks) ks key = lower_bound ks key.
Proof. intros Ha. apply searches_correct; auto. intros idx. apply build_index_wf. Qed.
Print Assumptions C14_start_indep.

Corollary C14_get_indep_none quota min_key_bytes ks key : asc ks ->
  find_key_pos (build_index quota min_key_bytes ks) ks key = find_key_pos None ks key.
Proof.
  intros Ha. rewrite C14_get_indep by auto. symmetry. apply C14_no_index_correct; auto.
Qed.

Corollary C14_start_indep_none quota min_key_bytes ks key : asc ks ->
  find_start_pos (build_index quota min_key_bytes ks) ks key = find_start_pos None ks key.
Proof.
  intros Ha. rewrite C14_start_indep by auto. symmetry. apply C14_no_index_correct; auto.
Qed.

(* for ANY well-formed index (any hop >= 1, truncated after any number of
   keys): covers every way the build loop may stop early *)
Theorem C14_get_indep_wf ks idx key : asc ks -> idx_wf ks idx ->
  find_key_pos (Some idx) ks key = position ks key.
Proof. intros Ha Hwf. apply searches_correct; auto. now intros ? [= <-]. Qed.
Print Assumptions C14_get_indep_wf.

Theorem C14_start_indep_wf ks idx key : asc ks -> idx_wf ks idx ->
  find_start_pos (Some idx) ks key = lower_bound ks key.
Proof. intros Ha Hwf. apply searches_correct; auto. now intros ? [= <-]. Qed.
Print Assumptions C14_start_indep_wf.

(* Get-level reading: with sorted unique keys, find (Segment.v) agrees with
   the position found through the index *)
Corollary C14_get_present quota min_key_bytes ks key : asc ks ->
  (exists p, find_key_pos (build_index quota min_key_bytes ks) ks key = Some p) <-> In key ks.
Proof.
  intros Ha. rewrite C14_get_indep by auto. split.
  - intros [p H]. apply position_iff in H; auto. eapply nth_error_In; eauto.
  - intros H. apply In_nth_error in H. destruct H as [p H]. exists p. apply position_iff; auto.
Qed.

Definition k (n : N) : bytes := [n].
Definition ks10 : list bytes :=
  [ []; k 1; [1;1]%N; [1;2;3;4;5]%N; k 2; [2;0]%N; k 3; [3;3;3]%N; k 4; [5;1]%N ].

Example ks10_asc : asc ks10.
Proof. apply sorted_keys_asc. reflexivity. Qed.

(* totKeyByte = 18, avg = 1, slots = 40/5 = 8, hop = 10/8+1 = 2, capacity 8
   bytes: positions 0,2,4,6,8 are all indexed (0+2+1+1+1 bytes) *)
Example ex_full_index :
  build_index 40 0 ks10 = Some (mkIndex 2 10 [ []; [1;1]; k 2; k 3; k 4 ]%N).
Proof. vm_compute. reflexivity. Qed.

(* slots = 12/5 = 2, hop = 6, capacity 2 bytes: positions 0 and 6 *)
Example ex_hop6 : build_index 12 0 ks10 = Some (mkIndex 6 10 [ []; k 3 ]%N).
Proof. vm_compute. reflexivity. Qed.

(* slots = 20/5 = 4, hop = 3, capacity 4 bytes: position 0 (0 bytes) fits,
   position 3 (5 bytes) does not -> truncated after one key *)
Example ex_truncated_bytes : build_index 20 0 ks10 = Some (mkIndex 3 10 [ [] ]).
Proof. vm_compute. reflexivity. Qed.

(* slots = 15/5 = 3, hop = 10/3+1 = 4, capacity 3 bytes: positions 0, 4, 8
   (0+1+1 bytes) all fit *)
Example ex_hop4 : build_index 15 0 ks10 = Some (mkIndex 4 10 [ []; k 2; k 4 ]%N).
Proof. vm_compute. reflexivity. Qed.

(* an index truncated by byte space after TWO keys: tot 17, avg 2,
   slots = 30/6 = 5, hop = 8/5+1 = 2, capacity 10 bytes; positions 0, 2 fit
   (1+1 bytes), position 4 (10 bytes > 8 left) does not: positions 4.. are
   covered only by the "last indexed key < key" window (2, 8) *)
Definition ks8 : list bytes :=
  [ k 1; k 2; k 3; k 4; [5;5;5;5;5;5;5;5;5;5]; k 6; k 7; k 8 ]%N.
Example ex_trunc_two_keys : build_index 30 0 ks8 = Some (mkIndex 2 8 [ k 1; k 3 ]).
Proof. vm_compute. reflexivity. Qed.
Example ex_trunc_probe_tail :
  probe_all 30 0 ks8 (k 7) = ((true, 2, 2), (2, 8), Some 6, 6)%N.
Proof. vm_compute. reflexivity. Qed.
Example ex_trunc_probe_above_last :
  probe_all 30 0 ks8 (k 9) = ((true, 2, 2), (2, 8), None, 8)%N.
Proof. vm_compute. reflexivity. Qed.
Example ex_trunc_probe_last_indexed :              (* direct hit on the last indexed key *)
  probe_all 30 0 ks8 (k 3) = ((true, 2, 2), (2, 3), Some 2, 2)%N.
Proof. vm_compute. reflexivity. Qed.
Example ex_trunc_probe_between :
  probe_all 30 0 ks8 [2;1]%N = ((true, 2, 2), (0, 2), None, 2)%N.
Proof. vm_compute. reflexivity. Qed.
Example ex_trunc_probe_below_first :               (* (0,0) early return, empty probe *)
  probe_all 30 0 ks8 [] = ((true, 2, 2), (0, 0), None, 0)%N.
Proof. vm_compute. reflexivity. Qed.

Definition ks6 : list bytes := [ k 1; [2;2;2;2;2;2]; k 3; k 4; [5;5;5;5;5;5;5;5]; k 6 ]%N.
(* tot 18, avg 3, slots 21/7 = 3, hop 3, capacity 9: position 0 (1 byte),
   position 3 (1 byte); done.  With quota 14: slots 2, hop 4, cap 6: 0 and 4:
   position 4 has 8 bytes > 5 remaining -> truncated by byte space *)
Example ex_trunc2 : build_index 14 0 ks6 = Some (mkIndex 4 6 [ k 1 ]).
Proof. vm_compute. reflexivity. Qed.

Example ex_min_key_bytes : build_index 40 19 ks10 = None.
Proof. vm_compute. reflexivity. Qed.
Example ex_quota_small : build_index 4 0 ks10 = None.
Proof. vm_compute. reflexivity. Qed.
Example ex_empty : build_index 100 0 [] = None.
Proof. vm_compute. reflexivity. Qed.

(* probes through the hop-2 index: (indexed, hop, numKeys), window, get, start *)
Example ex_probe_direct_hit :                      (* indexed key: window of 1 *)
  probe_all 40 0 ks10 (k 2) = ((true, 2, 5), (4, 5), Some 4, 4)%N.
Proof. vm_compute. reflexivity. Qed.
Example ex_probe_between_present :                 (* present, not indexed *)
  probe_all 40 0 ks10 [2;0]%N = ((true, 2, 5), (4, 6), Some 5, 5)%N.
Proof. vm_compute. reflexivity. Qed.
Example ex_probe_between_absent :
  probe_all 40 0 ks10 [1;0]%N = ((true, 2, 5), (0, 2), None, 2)%N.
Proof. vm_compute. reflexivity. Qed.
Example ex_probe_above_last :
  probe_all 40 0 ks10 (k 9) = ((true, 2, 5), (8, 10), None, 10)%N.
Proof. vm_compute. reflexivity. Qed.
Example ex_probe_last_key :
  probe_all 40 0 ks10 [5;1]%N = ((true, 2, 5), (8, 10), Some 9, 9)%N.
Proof. vm_compute. reflexivity. Qed.
Example ex_probe_empty_key :                       (* "" is the first key here *)
  probe_all 40 0 ks10 [] = ((true, 2, 5), (0, 1), Some 0, 0)%N.
Proof. vm_compute. reflexivity. Qed.
(* below the first key: the (0,0) early return *)
Example ex_probe_below_first :
  probe_all 21 0 ks6 [] = ((true, 3, 2), (0, 0), None, 0)%N.
Proof. vm_compute. reflexivity. Qed.
Example ex_probe_below_first_0 :
  probe_all 21 0 ks6 (k 0) = ((true, 3, 2), (0, 0), None, 0)%N.
Proof. vm_compute. reflexivity. Qed.
(* truncated index with one key: window is the whole segment *)
Example ex_probe_truncated :
  probe_all 14 0 ks6 (k 4) = ((true, 4, 1), (0, 6), Some 3, 3)%N.
Proof. vm_compute. reflexivity. Qed.
(* hop 3, two indexed keys, probe beyond the last indexed key *)
Example ex_probe_hop3_tail :
  probe_all 21 0 ks6 [5;5]%N = ((true, 3, 2), (3, 6), None, 4)%N.
Proof. vm_compute. reflexivity. Qed.
Example ex_probe_no_index :
  probe_all 0 0 ks6 (k 3) = ((false, 0, 0), (0, 6), Some 2, 2)%N.
Proof. vm_compute. reflexivity. Qed.
