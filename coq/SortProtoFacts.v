(* C17 -- the deferred-sort ticket protocol: proofs about SortProto.v.

   For the programs that stand for the CURRENT source ([current_progs]), for
   every assignment of kinds to goroutines (any number), every set of segments,
   every range and every schedule:
     (a) at most one goroutine is inside the write section of a segment and
         the write section is entered at most once;
     (b) RequestSort = true / ensureSorted(lo,hi) finished => every segment in
         range is sorted, its sort FINISHED, and the goroutine is ordered after
         the end of the write by happens-before; no step is ever a violation;
     (c) a goroutine waiting on waitSortedCh is released by at most 4 steps of
         the ticket holder, none of which blocks.
   Mutants are refuted by computed schedules. *)

From Coq Require Import List Bool Arith ZArith Lia.
Import ListNotations.
From Moss Require Import SortProto.

Lemma upd_same : forall A (f : nat -> A) i v, upd f i v i = v.
Proof. intros; unfold upd; now rewrite Nat.eqb_refl. Qed.

Lemma upd_other : forall A (f : nat -> A) i v j, j <> i -> upd f i v j = f j.
Proof. intros A f i v j Hne; unfold upd; destruct (Nat.eqb_spec j i); [contradiction|reflexivity]. Qed.

Inductive ph := P0 | P0r | P1 | P2 | P3 | P4 | P5 | P6 | P7 | P8 | P9.

Definition code_of (p : ph) : list stmt :=
  match p with
  | P0 => request_sort_prog
  | P0r => SReturn true :: rs_tail1
  | P1 => rs_tail1
  | P2 => rs_tail2
  | P3 => rs_sorter ++ rs_tail3
  | P4 => SClose WaitSorted :: SReturn true :: rs_tail3
  | P5 => SReturn true :: rs_tail3
  | P6 => rs_tail3
  | P7 => rs_waiter ++ rs_tail4
  | P8 => SReturn true :: rs_tail4
  | P9 => rs_tail4
  end.

Definition phinv (p : ph) (x : sst) (k : bool) (g : nat) (f : frame) : Prop :=
  match p with
  | P0 | P1 => f_inw f = false
  | P0r => s_nil x = true
  | P2 => f_inw f = false /\ s_nil x = false /\
          (if f_var f then s_holder x = Some g /\ s_latch x = false else s_ticket x = false)
  | P3 => s_nil x = false /\ s_holder x = Some g /\ s_latch x = false
  | P4 => f_inw f = false /\ s_nil x = false /\ s_holder x = Some g /\ s_latch x = false
  | P5 | P8 => k = true
  | P6 => s_nil x = false /\ s_ticket x = false
  | P7 => s_nil x = false /\ s_ticket x = false /\ f_sync f = true
  | P9 => f_sync f = false
  end.

Definition finv (x : sst) (k : bool) (g : nat) (f : frame) : Prop :=
  exists p, f_code f = code_of p /\ phinv p x k g f.

(* what the segment knows about its sorter's frame *)
Definition sorter (f : frame) (x : sst) (k : bool) : Prop :=
  (f_code f = code_of P2 /\ f_var f = true /\ f_inw f = false /\
   s_entered x = 0 /\ s_inw x = 0 /\ s_done x = false)
  \/ (f_code f = code_of P3 /\ f_inw f = false /\ s_entered x = 0 /\ s_inw x = 0 /\ s_done x = false)
  \/ (f_code f = code_of P3 /\ f_inw f = true /\ s_entered x = 1 /\ s_inw x = 1 /\ s_done x = false)
  \/ (f_code f = code_of P4 /\ f_inw f = false /\ s_entered x = 1 /\ s_inw x = 0 /\
      s_done x = true /\ k = true).

Definition sinv (GS : nat -> gst) (x : sst) (s : nat) : Prop :=
  if s_nil x then s_inw x = 0 /\ s_entered x = 0 /\ s_holder x = None
  else
    (forall g, g_known (GS g) s = true -> s_done x = true) /\
    (s_read x = true -> s_done x = true) /\
    ( (s_ticket x = true /\ s_holder x = None /\ s_entered x = 0 /\ s_inw x = 0 /\
       s_done x = false /\ s_latch x = false)
      \/ (s_ticket x = false /\ exists g, s_holder x = Some g /\
           ( (s_latch x = true /\ s_latch_hb x = true /\ s_done x = true /\
              s_entered x = 1 /\ s_inw x = 0)
             \/ (s_latch x = false /\ exists f, g_frame (GS g) = Some f /\ f_seg f = s /\
                 sorter f x (g_known (GS g) s))))).

Definition sfor (SS : nat -> sst) (G : gst) (s : nat) : bool := s_nil (SS s) || g_known G s.

Definition cov (SS : nat -> sst) (G : gst) (lo hi : nat) (z : Z) : Prop :=
  forall s, (z < Z.of_nat s)%Z -> lo <= s <= hi -> sfor SS G s = true.

Definition call_ok (G : gst) (z : Z) (lo : nat) (sy : bool) : Prop :=
  match g_frame G with
  | None => True
  | Some f => f_seg f = Z.to_nat z /\ (Z.of_nat lo <= z)%Z /\ f_sync f = sy
  end.

Definition einv (SS : nat -> sst) (G : gst) (lo hi : nat) : Prop :=
  (g_code G = ensure_sorted_prog /\ g_loop G = None /\ g_frame G = None)
  \/ (g_code G = es_tail1 /\ g_loop G = None /\ g_frame G = None)
  \/ (g_code G = es_tail2 /\ g_loop G = None /\ g_frame G = None /\ g_sorted G = true)
  \/ (exists z, g_code G = es_tail3 /\ g_loop G = Some (es_loop1, z) /\ (z <= Z.of_nat hi)%Z /\
                (g_sorted G = true -> cov SS G lo hi z) /\ call_ok G z lo false)
  \/ (g_code G = es_tail3 /\ g_loop G = None /\ g_frame G = None /\
      (g_sorted G = true -> cov SS G lo hi (Z.of_nat lo - 1)))
  \/ (g_code G = [ELoop es_loop2] /\ g_loop G = None /\ g_frame G = None)
  \/ (exists z, g_code G = [] /\ g_loop G = Some (es_loop2, z) /\ (z <= Z.of_nat hi)%Z /\
                cov SS G lo hi z /\ call_ok G z lo true)
  \/ (g_code G = [] /\ g_loop G = None /\ g_frame G = None /\ cov SS G lo hi (Z.of_nat lo - 1)).

Definition ginv (SS : nat -> sst) (G : gst) (g : nat) : Prop :=
  (forall f, g_frame G = Some f -> finv (SS (f_seg f)) (g_known G (f_seg f)) g f) /\
  match g_kind G with
  | KIdle => g_frame G = None /\ g_loop G = None /\ g_code G = []
  | KRogue _ => False
  | KRequest s sy =>
      g_loop G = None /\ g_code G = [] /\
      match g_frame G with
      | Some f => f_seg f = s /\ f_sync f = sy /\ g_ret G = None
      | None => forall b, g_ret G = Some b -> if b then sfor SS G s = true else sy = false
      end
  | KEnsure lo hi => einv SS G lo hi
  end.

Definition Inv (st : state) : Prop :=
  bad st = None /\ (forall s, sinv (gs st) (ss st s) s) /\ (forall g, ginv (ss st) (gs st g) g).

Inductive sorter_at (f : frame) (x : sst) (k : bool) : Prop :=
| SoTicket : f_code f = code_of P2 -> f_var f = true -> f_inw f = false ->
    s_entered x = 0 -> s_inw x = 0 -> s_done x = false -> sorter_at f x k
| SoBefore : f_code f = code_of P3 -> f_inw f = false ->
    s_entered x = 0 -> s_inw x = 0 -> s_done x = false -> sorter_at f x k
| SoInside : f_code f = code_of P3 -> f_inw f = true ->
    s_entered x = 1 -> s_inw x = 1 -> s_done x = false -> sorter_at f x k
| SoAfter : f_code f = code_of P4 -> f_inw f = false ->
    s_entered x = 1 -> s_inw x = 0 -> s_done x = true -> k = true -> sorter_at f x k.

Lemma sorter_iff : forall f x k, sorter f x k <-> sorter_at f x k.
Proof.
  unfold sorter. split.
  - intros [H|[H|[H|H]]]; [apply SoTicket|apply SoBefore|apply SoInside|apply SoAfter]; tauto.
  - intros []; tauto.
Qed.

Inductive sphase (GS : nat -> gst) (x : sst) (s : nat) : Prop :=
| PhFree : s_ticket x = true -> s_holder x = None -> s_entered x = 0 -> s_inw x = 0 ->
    s_done x = false -> s_latch x = false -> sphase GS x s
| PhSorting g f : s_ticket x = false -> s_holder x = Some g -> s_latch x = false ->
    g_frame (GS g) = Some f -> f_seg f = s -> sorter_at f x (g_known (GS g) s) -> sphase GS x s
| PhDone g : s_ticket x = false -> s_holder x = Some g -> s_latch x = true ->
    s_latch_hb x = true -> s_done x = true -> s_entered x = 1 -> s_inw x = 0 -> sphase GS x s.

Lemma sinv_open : forall GS x s, s_nil x = false ->
  (sinv GS x s <->
   (forall g, g_known (GS g) s = true -> s_done x = true) /\
   (s_read x = true -> s_done x = true) /\ sphase GS x s).
Proof.
  unfold sinv. intros GS x s ->.
  split; intros (Hk & Hr & Hm); (split; [exact Hk|split; [exact Hr|]]).
  - destruct Hm as [Hm|(Ht & g & Hh & [Hm|(Hl & f & Hf & Hs & Hso)])].
    + apply PhFree; tauto.
    + apply (PhDone _ _ _ g); tauto.
    + apply (PhSorting _ _ _ g f); try assumption. now apply sorter_iff.
  - destruct Hm as [|g f Ht Hh Hl Hf Hs Hso|g Ht Hh]; [tauto| |];
      (right; split; [exact Ht|]; exists g; split; [exact Hh|]); [right|left; tauto].
    apply sorter_iff in Hso. split; [exact Hl|]. exists f. auto.
Qed.

Lemma sinv_counts : forall GS x s, sinv GS x s ->
  s_inw x <= 1 /\ s_entered x <= 1 /\ (s_nil x = true \/ s_done x = true -> s_inw x = 0).
Proof.
  intros GS x s H. destruct (s_nil x) eqn:Hn.
  - unfold sinv in H. rewrite Hn in H. lia.
  - apply sinv_open in H; [|exact Hn].
    destruct H as (_ & _ & [|g f _ _ _ _ _ []|]); repeat split; try lia; intros [|]; congruence.
Qed.

Lemma sinv_ticket : forall GS x s, sinv GS x s -> s_ticket x = true -> s_holder x = None.
Proof.
  intros GS x s H Ht. destruct (s_nil x) eqn:Hn.
  - unfold sinv in H. rewrite Hn in H. tauto.
  - apply sinv_open in H; [|exact Hn]. destruct H as (_ & _ & []); congruence.
Qed.

Lemma sinv_holder : forall GS x s g f,
  sinv GS x s -> s_nil x = false -> s_holder x = Some g -> s_latch x = false ->
  g_frame (GS g) = Some f ->
  (forall h, g_known (GS h) s = true -> s_done x = true) /\ (s_read x = true -> s_done x = true) /\
  s_ticket x = false /\ sorter_at f x (g_known (GS g) s).
Proof.
  intros GS x s g f H Hn Hh Hl Hf. apply sinv_open in H; [|exact Hn].
  destruct H as (Hk & Hr & [|g' f' Ht Hh' _ Hf' _ Hso|]); try congruence.
  assert (g' = g) by congruence. subst g'. rewrite Hf in Hf'. injection Hf' as <-. auto.
Qed.

(* [einv] by program point of ensureSorted *)
Inductive eat (SS : nat -> sst) (G : gst) (lo hi : nat) : Prop :=
| AtGuard : g_code G = ensure_sorted_prog -> g_loop G = None -> g_frame G = None -> eat SS G lo hi
| AtSet : g_code G = es_tail1 -> g_loop G = None -> g_frame G = None -> eat SS G lo hi
| AtLoop1 : g_code G = es_tail2 -> g_loop G = None -> g_frame G = None -> g_sorted G = true ->
    eat SS G lo hi
| InLoop1 z : g_code G = es_tail3 -> g_loop G = Some (es_loop1, z) -> (z <= Z.of_nat hi)%Z ->
    (g_sorted G = true -> cov SS G lo hi z) -> call_ok G z lo false -> eat SS G lo hi
| AtIf : g_code G = es_tail3 -> g_loop G = None -> g_frame G = None ->
    (g_sorted G = true -> cov SS G lo hi (Z.of_nat lo - 1)) -> eat SS G lo hi
| AtLoop2 : g_code G = [ELoop es_loop2] -> g_loop G = None -> g_frame G = None -> eat SS G lo hi
| InLoop2 z : g_code G = [] -> g_loop G = Some (es_loop2, z) -> (z <= Z.of_nat hi)%Z ->
    cov SS G lo hi z -> call_ok G z lo true -> eat SS G lo hi
| AtEnd : g_code G = [] -> g_loop G = None -> g_frame G = None ->
    cov SS G lo hi (Z.of_nat lo - 1) -> eat SS G lo hi.

Lemma einv_iff : forall SS G lo hi, einv SS G lo hi <-> eat SS G lo hi.
Proof.
  unfold einv. split.
  - intros [H|[H|[H|[(z & H)|[H|[H|[(z & H)|H]]]]]]];
      [apply AtGuard|apply AtSet|apply AtLoop1|apply (InLoop1 _ _ _ _ z)|apply AtIf|apply AtLoop2
      |apply (InLoop2 _ _ _ _ z)|apply AtEnd]; tauto.
  - intros [| | |z| | |z|]; [tauto|tauto|tauto| |tauto|tauto| |tauto].
    + do 3 right. left. exists z. tauto.
    + do 6 right. left. exists z. tauto.
Qed.

Definition sorter_ph (p : ph) (var : bool) : bool :=
  match p with P2 => var | P3 | P4 => true | _ => false end.

Lemma sorter_at_ph : forall f x k p,
  sorter_at f x k -> f_code f = code_of p -> sorter_ph p (f_var f) = true.
Proof.
  intros f x k p [Hc Hv|Hc|Hc|Hc] Hp; rewrite Hp in Hc; destruct p; try discriminate Hc; trivial.
Qed.

(* a returning frame *)
Lemma fstep_ret : forall g x k f b, finv x k g f -> fstep g x k f = FRet b ->
  if b then s_nil x || k = true else f_sync f = false.
Proof.
  intros g x k [s sy var inw code] b [p [Hc Hp]] Hs. cbn in Hc. subst code.
  destruct p; cbn in Hs, Hp; try discriminate.
  - injection Hs as <-. now rewrite Hp.
  - destruct (recv g NeedSorter x k) as [[[? ?] ?]|]; discriminate.
  - destruct inw; discriminate.
  - injection Hs as <-. subst k. apply orb_true_r.
  - destruct (recv g WaitSorted x k) as [[[? ?] ?]|]; discriminate.
  - injection Hs as <-. subst k. apply orb_true_r.
  - injection Hs as <-. exact Hp.
Qed.

Lemma sorter_not_ret : forall g f x k b, sorter_at f x k -> fstep g x k f = FRet b -> False.
Proof.
  intros g [s sy var inw code] x k b [Hc|Hc|Hc|Hc] Hst; cbn in Hc; subst code; cbn in Hst;
    try discriminate; destruct inw; discriminate.
Qed.

Definition stable (g : nat) (x x' : sst) : Prop :=
  s_nil x' = s_nil x /\
  (s_ticket x = false -> s_ticket x' = false /\ s_holder x' = s_holder x) /\
  (s_latch x = false -> s_holder x <> Some g -> s_latch x' = false).

Lemma stable_refl : forall g x, stable g x x.
Proof. intros; repeat split; auto. Qed.

(* what everybody knows about s after a step of g, D standing for [s_done] afterwards *)
Lemma known_step : forall (D : Prop) (GS GS' : nat -> gst) g s,
  (forall h, g_known (GS h) s = true -> D) -> (forall h, h <> g -> GS' h = GS h) ->
  (g_known (GS' g) s = true -> g_known (GS g) s = true \/ D) ->
  forall h, g_known (GS' h) s = true -> D.
Proof.
  intros D GS GS' g s Hk Hoth Hg h Hh. destruct (Nat.eq_dec h g) as [->|Hne].
  - destruct (Hg Hh); eauto.
  - rewrite Hoth in Hh by assumption. eauto.
Qed.

Lemma sinv_passive : forall GS GS' g x s,
  sinv GS x s ->
  (forall h, h <> g -> GS' h = GS h) ->
  (g_known (GS' g) s = true -> g_known (GS g) s = true \/ (s_nil x = false -> s_done x = true)) ->
  (forall f, g_frame (GS g) = Some f -> f_seg f = s -> ~ sorter_at f x (g_known (GS g) s)) ->
  sinv GS' x s.
Proof.
  intros GS GS' g x s H Hoth Hg Hns. destruct (s_nil x) eqn:Hn.
  - unfold sinv in *. now rewrite Hn in *.
  - apply sinv_open in H; [|exact Hn]. apply sinv_open; [exact Hn|].
    destruct H as (Hk & Hr & Hph). split; [|split; [exact Hr|]].
    + apply (known_step _ _ _ g s Hk Hoth). intros Hh. destruct (Hg Hh); auto.
    + destruct Hph as [|h f Ht Hh Hl Hf Hs Hso|h]; [now apply PhFree| |now apply (PhDone _ _ _ h)].
      destruct (Nat.eq_dec h g) as [->|Hne]; [destruct (Hns f Hf Hs Hso)|].
      apply (PhSorting _ _ _ h f); rewrite ?Hoth; assumption.
Qed.

Record fnext_ok (GS' : nat -> gst) g x k f x' f' k' (v : option viol) s : Prop := {
  fn_viol : v = None;
  fn_seg : f_seg f' = s;
  fn_sync : f_sync f' = f_sync f;
  fn_known : k = true -> k' = true;
  fn_finv : finv x' k' g f';
  fn_stable : stable g x x';
  fn_sinv : sinv GS' x' s }.

Lemma fstep_next : forall GS GS' g x k f x' f' k' v s,
  f_seg f = s -> g_frame (GS g) = Some f -> g_known (GS g) s = k ->
  finv x k g f -> sinv GS x s ->
  fstep g x k f = FNext x' f' k' v ->
  (forall h, h <> g -> GS' h = GS h) -> g_frame (GS' g) = Some f' -> g_known (GS' g) s = k' ->
  fnext_ok GS' g x k f x' f' k' v s.
Proof.
  intros GS GS' g x k [s0 sy var inw code] x' f' k' v s Hseg Hfr Hkn [p [Hc Hp]] Hsi Hst Hoth Hfr' Hkn'.
  cbn in Hc, Hseg. subst code s0.
  assert (Hpas : x' = x -> sorter_ph p var = false ->
                 (k' = true -> k = true \/ (s_nil x = false -> s_done x = true)) -> sinv GS' x' s).
  { intros -> Hsp Hk. apply (sinv_passive GS GS' g x s Hsi Hoth); [now rewrite Hkn', Hkn|].
    intros f0 Hf0 _ Hso. rewrite Hfr in Hf0. injection Hf0 as <-.
    pose proof (sorter_at_ph _ _ _ p Hso eq_refl) as H. cbn in H. congruence. }
  assert (Hkn2 : forall D : Prop, (forall h, g_known (GS h) s = true -> D) -> k' = k ->
                 forall h, g_known (GS' h) s = true -> D).
  { intros D Hk ->. apply (known_step _ _ _ g s Hk Hoth). rewrite Hkn', Hkn. auto. }
  destruct p; cbn in Hst, Hp.
  - (* P0 *) injection Hst as <- <- <- <-.
    constructor; trivial; [|apply stable_refl|apply Hpas; auto].
    destruct (s_nil x) eqn:Hn; [exists P0r|exists P1]; cbn; auto.
  - discriminate.
  - (* P1 *) unfold recv in Hst. destruct (s_nil x) eqn:Hn; [discriminate|].
    destruct (s_ticket x) eqn:Ht; injection Hst as <- <- <- <-.
    + (* the ticket *)
      apply sinv_open in Hsi; [|exact Hn].
      destruct Hsi as (Hk & Hr & [_ Hh He Hi Hd Hl| |]); try congruence.
      constructor; trivial.
      * exists P2. cbn. auto.
      * unfold stable; cbn. split; [auto|]. split; [congruence|auto].
      * apply sinv_open; [reflexivity|]. split; [now apply Hkn2|split; [exact Hr|]].
        eapply PhSorting; [reflexivity|reflexivity|exact Hl|exact Hfr'|reflexivity|].
        now apply SoTicket.
    + constructor; trivial; [|apply stable_refl|apply Hpas; auto]. exists P2. cbn. auto.
  - (* P2 *) destruct Hp as (Hi & Hn & Hv). injection Hst as <- <- <- <-. cbn in Hi. subst inw.
    destruct var.
    + destruct Hv as (Hh & Hl).
      destruct (sinv_holder _ _ _ _ _ Hsi Hn Hh Hl Hfr) as (Hk & Hr & Ht & Hso).
      destruct Hso as [_ _ _ He Hw Hd|Hc|Hc|Hc]; try discriminate Hc.
      constructor; trivial.
      * exists P3. cbn. auto.
      * apply stable_refl.
      * apply sinv_open; [exact Hn|]. split; [now apply Hkn2|split; [exact Hr|]].
        apply (PhSorting _ _ _ g _ Ht Hh Hl Hfr' eq_refl). now apply SoBefore.
    + constructor; trivial; [|apply stable_refl|apply Hpas; auto]. exists P6. cbn. auto.
  - (* P3 *) destruct Hp as (Hn & Hh & Hl).
    destruct (sinv_holder _ _ _ _ _ Hsi Hn Hh Hl Hfr) as (Hk & Hr & Ht & Hso).
    destruct Hso as [Hc|_ Hi He Hw Hd|_ Hi He Hw Hd|Hc]; try discriminate Hc;
      cbn in Hi; subst inw; injection Hst as <- <- <- <-.
    + (* begin *)
      assert (Hrd : s_read x = false).
      { destruct (s_read x); [|reflexivity]. rewrite Hr in Hd by reflexivity. discriminate. }
      rewrite Hw, Hrd. constructor; trivial.
      * exists P3. cbn. auto.
      * unfold stable; cbn. auto.
      * apply sinv_open; [exact Hn|]. split; [now apply Hkn2|split; [exact Hr|]].
        apply (PhSorting _ (begin_write x) _ g _ Ht Hh Hl Hfr' eq_refl).
        apply SoInside; cbn; congruence.
    + (* end *)
      constructor; trivial.
      * exists P4. cbn. auto.
      * unfold stable; cbn. auto.
      * apply sinv_open; [exact Hn|]. cbn. split; [auto|split; [auto|]].
        apply (PhSorting _ (end_write x) _ g _ Ht Hh Hl Hfr' eq_refl). apply SoAfter; cbn; trivial.
        now rewrite Hw.
  - (* P4 *) destruct Hp as (Hi & Hn & Hh & Hl). cbn in Hi. subst inw.
    destruct (sinv_holder _ _ _ _ _ Hsi Hn Hh Hl Hfr) as (Hk & Hr & Ht & Hso).
    destruct Hso as [Hc|Hc|Hc|_ _ He Hw Hd Hkt]; try discriminate Hc.
    injection Hst as <- <- <- <-. rewrite Hn, Hl. constructor; trivial.
    + exists P5. cbn. split; congruence.
    + unfold stable; cbn. split; [auto|]. split; [auto|]. intros _ Hne. congruence.
    + apply sinv_open; [exact Hn|]. split; [auto|split; [exact Hr|]].
      apply (PhDone _ _ _ g); cbn; rewrite ?Hl; congruence.
  - discriminate.
  - (* P6 *) destruct Hp as (Hn & Ht). injection Hst as <- <- <- <-.
    constructor; trivial; [|apply stable_refl|apply Hpas; auto].
    destruct sy; [exists P7|exists P9]; cbn; auto.
  - (* P7 *) destruct Hp as (Hn & Ht & Hsy). unfold recv in Hst. rewrite Hn in Hst.
    destruct (s_latch x) eqn:Hl; [|discriminate]. injection Hst as <- <- <- <-.
    assert (Hhb : s_latch_hb x = true /\ s_done x = true).
    { apply sinv_open in Hsi; [|exact Hn]. destruct Hsi as (_ & _ & []); split; congruence. }
    destruct Hhb as (Hhb & Hd). rewrite Hhb, orb_true_r.
    constructor; trivial; [|apply stable_refl|apply Hpas; auto]. exists P8. cbn. auto.
  - discriminate.
  - discriminate.
Qed.

Lemma finv_stable : forall g g' x x' k f,
  g' <> g -> stable g x x' -> (s_ticket x = true -> s_holder x = None) ->
  finv x k g' f -> finv x' k g' f.
Proof.
  intros g g' x x' k f Hne (Hn & Ht & Hl) Hth [p [Hc Hp]]. exists p. split; [assumption|].
  assert (Hhold : s_holder x = Some g' -> s_latch x = false ->
                  s_holder x' = Some g' /\ s_latch x' = false).
  { intros Hh Hla. assert (Htf : s_ticket x = false).
    { destruct (s_ticket x); [|reflexivity]. rewrite Hth in Hh by reflexivity. discriminate. }
    destruct (Ht Htf) as [_ Hh']. split; [congruence|]. apply Hl; [assumption|congruence]. }
  destruct p; cbn in *; rewrite ?Hn; auto.
  - destruct Hp as (Hi & Hnn & Hv). split; [assumption|]. split; [assumption|].
    destruct (f_var f); [destruct Hv; auto|]. apply Ht; assumption.
  - destruct Hp as (Hnn & Hh & Hla). destruct (Hhold Hh Hla). auto.
  - destruct Hp as (Hi & Hnn & Hh & Hla). destruct (Hhold Hh Hla). auto.
  - destruct Hp as (Hnn & Htt). split; [assumption|]. apply Ht; assumption.
  - destruct Hp as (Hnn & Htt & Hsy). split; [assumption|]. split; [apply Ht; assumption|assumption].
Qed.

Lemma einv_mono : forall SS SS' G G' lo hi,
  g_code G' = g_code G -> g_loop G' = g_loop G -> g_sorted G' = g_sorted G ->
  (forall s, sfor SS G s = true -> sfor SS' G' s = true) ->
  match g_frame G, g_frame G' with
  | None, None => True
  | Some f, Some f' => f_seg f' = f_seg f /\ f_sync f' = f_sync f
  | _, _ => False
  end ->
  einv SS G lo hi -> einv SS' G' lo hi.
Proof.
  intros SS SS' G G' lo hi Hc Hl Hs Hsf Hfr H. apply einv_iff in H. apply einv_iff.
  assert (Hcov : forall z, cov SS G lo hi z -> cov SS' G' lo hi z).
  { unfold cov; intros z Hz s H1 H2. auto. }
  assert (Hnone : g_frame G = None -> g_frame G' = None).
  { intros Hn. rewrite Hn in Hfr. destruct (g_frame G'); [contradiction|reflexivity]. }
  assert (Hcall : forall z sy, call_ok G z lo sy -> call_ok G' z lo sy).
  { unfold call_ok; intros z sy. destruct (g_frame G), (g_frame G'); try tauto.
    destruct Hfr as [-> ->]; auto. }
  destruct H as [| | |z| | |z|];
    [apply AtGuard|apply AtSet|apply AtLoop1|apply (InLoop1 _ _ _ _ z)|apply AtIf|apply AtLoop2
    |apply (InLoop2 _ _ _ _ z)|apply AtEnd]; rewrite ?Hc, ?Hl, ?Hs; auto.
Qed.

Lemma sfor_upd : forall SS G s0 x' s,
  s_nil x' = s_nil (SS s0) -> sfor (upd SS s0 x') G s = sfor SS G s.
Proof.
  intros SS G s0 x' s Hn. unfold sfor, upd. destruct (Nat.eqb_spec s s0); [subst; now rewrite Hn|reflexivity].
Qed.

Lemma ginv_other : forall SS G g g' s0 x',
  g' <> g -> ginv SS G g' -> stable g (SS s0) x' ->
  (s_ticket (SS s0) = true -> s_holder (SS s0) = None) -> ginv (upd SS s0 x') G g'.
Proof.
  intros SS G g g' s0 x' Hne (Hf & Hk) Hst Hth. pose proof Hst as (Hn & _).
  split.
  - intros f Hfr. specialize (Hf f Hfr). unfold upd. destruct (Nat.eqb_spec (f_seg f) s0) as [He|He].
    + subst s0. eapply finv_stable; eauto.
    + assumption.
  - destruct (g_kind G); auto.
    + eapply einv_mono; try eassumption; auto.
      * intros s. now rewrite sfor_upd.
      * destruct (g_frame G); auto.
    + destruct Hk as (H1 & H2 & H3). split; [assumption|]. split; [assumption|].
      destruct (g_frame G); [assumption|]. intros b Hb. specialize (H3 b Hb).
      destruct b; [now rewrite sfor_upd|assumption].
Qed.

(* a step that changes only the local state of g (same knowledge) *)
Lemma inv_local : forall st g G',
  Inv st ->
  (forall s, g_known G' s = g_known (gs st g) s) ->
  (forall f, g_frame (gs st g) = Some f ->
             ~ sorter_at f (ss st (f_seg f)) (g_known (gs st g) (f_seg f))) ->
  ginv (ss st) G' g ->
  Inv (set_g st g G').
Proof.
  intros st g G' (Hb & Hs & Hg) Hk Hns HG'. split; [assumption|]. split; cbn.
  - intros s. apply (sinv_passive (gs st) (upd (gs st) g G') g (ss st s) s (Hs s)).
    + intros h Hne. now apply upd_other.
    + rewrite upd_same, Hk. auto.
    + intros f Hf Hsg. subst s. eapply Hns; eauto.
  - intros h. destruct (Nat.eq_dec h g) as [->|Hne]; [now rewrite upd_same|].
    rewrite upd_other by assumption. apply Hg.
Qed.

(* the same for a reader that afterwards is between two calls of RequestSort or enters one *)
Lemma inv_local_ensure : forall st g lo hi G',
  Inv st ->
  (forall f, g_frame (gs st g) = Some f ->
             ~ sorter_at f (ss st (f_seg f)) (g_known (gs st g) (f_seg f))) ->
  g_kind G' = KEnsure lo hi -> g_known G' = g_known (gs st g) ->
  match g_frame G' with Some f => f_code f = code_of P0 /\ f_inw f = false | None => True end ->
  eat (ss st) G' lo hi -> Inv (set_g st g G').
Proof.
  intros st g lo hi G' HI Hns Hkd Hkn Hf He.
  apply inv_local; [exact HI|now rewrite Hkn|exact Hns|]. split.
  - intros f Hfr. rewrite Hfr in Hf. exists P0. exact Hf.
  - rewrite Hkd. now apply einv_iff.
Qed.
