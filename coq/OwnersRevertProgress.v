(* OwnersRevertProgress.v -- PROGRESS of SnapshotRevert in the extended ownership
   model: from every state that satisfies the ownership invariant with no
   reference left in a local (every state a history reaches), the revert
   operation runs to its end whatever handle and outcome are chosen - it never
   AddRef()s or DecRef()s a released object, never gives back a reference it
   does not hold, never overwrites a root and ends with no reference left in a
   local (x_revert_never_faults, x_revert_never_faults_after_any_history).
   The revert needs ranks only.  The other operations (those of Owners.v,
   XPrev, XOpenColl) need a kind discipline of the heap - footers hold
   mappings, mappings hold files - that the ownership invariant does not
   carry: PROGRESS of the whole alphabet is proved with that strengthened
   invariant in OwnersProgressRules.v / OwnersProgressFacts.v /
   OwnersRevertProgressFacts.v (C15_legal_use_never_faults). *)
From Coq Require Import List Arith Bool Lia.
From Moss Require Import Owners OwnersFacts OwnersRevert OwnersRevertFacts OwnersProgress OwnersProgressRules.
Import ListNotations.

(* the heap grows and counts change; kinds and references stay *)

Definition shape (h h' : heap) : Prop :=
  forall o ob, nth_error h o = Some ob ->
    exists ob', nth_error h' o = Some ob' /\ o_kind ob' = o_kind ob /\ o_top ob' = o_top ob /\
                o_refs ob' = o_refs ob /\ o_kids ob' = o_kids ob /\ o_file ob' = o_file ob.

(* shape is hrel oshape, written out *)
Definition oshape (ob ob' : obj) : Prop :=
  o_kind ob' = o_kind ob /\ o_top ob' = o_top ob /\
  o_refs ob' = o_refs ob /\ o_kids ob' = o_kids ob /\ o_file ob' = o_file ob.
Lemma oshape_refl ob : oshape ob ob.
Proof. unfold oshape. auto 6. Qed.

Lemma shape_refl h : shape h h.
Proof. exact (hrel_refl oshape oshape_refl h). Qed.
Lemma shape_trans a b c : shape a b -> shape b c -> shape a c.
Proof.
  apply (hrel_trans oshape). intros x y z [K1 [T1 [R1 [D1 F1]]]] [K2 [T2 [R2 [D2 F2]]]].
  repeat split; congruence.
Qed.
Lemma shape_rank h h' o ob ob' : shape h h' -> nth_error h o = Some ob -> nth_error h' o = Some ob' ->
  rank ob' = rank ob.
Proof.
  intros S H H'. destruct (S o ob H) as [ob1 [E1 [K1 [T1 _]]]]. rewrite H' in E1. inversion E1; subst.
  unfold rank. rewrite K1, T1. reflexivity.
Qed.
Lemma shape_ranked (P : nat -> Prop) h h' o : shape h h' ->
  (exists ob, nth_error h o = Some ob /\ P (rank ob)) -> exists ob', nth_error h' o = Some ob' /\ P (rank ob').
Proof.
  intros S [ob [E L]]. destruct (S o ob E) as [ob' [E' _]]. exists ob'. split; [exact E'|].
  rewrite (shape_rank _ _ _ _ _ S E E'). exact L.
Qed.
Lemma shape_upd_cnt h o ob n : nth_error h o = Some ob -> shape h (upd o (set_cnt ob n) h).
Proof. intros Ho. apply (hrel_upd oshape oshape_refl) with (ob := ob); [exact Ho|]. unfold oshape. simpl. auto 6. Qed.
Lemma shape_snoc h ob : shape h (h ++ [ob]).
Proof. exact (hrel_snoc oshape oshape_refl h ob). Qed.
Lemma shape_allrefs h h' r : shape h h' -> In r (allrefs h) -> In r (allrefs h').
Proof.
  intros S H. apply allrefs_in in H. destruct H as [a [ob [Ha Hin]]].
  destruct (S a ob Ha) as [ob' [E [_ [_ [R [K _]]]]]].
  eapply in_allrefs; eauto. unfold orefs in *. rewrite R, K. exact Hin.
Qed.

Lemma addref_ok o st : Inv st -> In o (allrefs (hp st)) ->
  exists st', addref o st = Some st' /\ Inv st' /\ shape (hp st) (hp st') /\
              regs st' = regs st /\ hand st' = o :: hand st.
Proof.
  intros I Hin.
  destruct (addref_of_referenced_object_succeeds st o I) as [st' H].
  { apply in_or_app. right. exact Hin. }
  exists st'. split; [exact H|]. split; [eapply pres_addref; eauto|].
  unfold addref in H. destruct (nth_error (hp st) o) as [ob|] eqn:Ho; [|discriminate].
  destruct (o_cnt ob); [discriminate|]. inversion H; subst; simpl.
  split; [apply shape_upd_cnt; exact Ho|]. auto.
Qed.

Lemma each_addref_ok : forall ms st, Inv st -> (forall m, In m ms -> In m (allrefs (hp st))) ->
  exists st', each ms addref st = Some st' /\ Inv st' /\ shape (hp st) (hp st') /\
              regs st' = regs st /\ (forall x, cn x (hand st') = cn x ms + cn x (hand st)).
Proof.
  induction ms as [|m r IH]; intros st I H; simpl.
  - exists st. split; [reflexivity|]. split; auto. split; [apply shape_refl|]. split; auto.
  - destruct (addref_ok m st I (H m (or_introl eq_refl))) as [s1 [E1 [I1 [S1 [R1 H1]]]]].
    destruct (IH s1 I1) as [s2 [E2 [I2 [S2 [R2 H2]]]]].
    { intros m' Hm'. eapply shape_allrefs; eauto. apply H. right. exact Hm'. }
    exists s2. unfold bind. rewrite E1. split; [exact E2|]. split; auto.
    split; [eapply shape_trans; eauto|]. split; [congruence|].
    intros x. rewrite H2, H1, !cn_cons. lia.
Qed.

Lemma alloc_k_ok k top rs ks f cont st : Inv st ->
  (forall x, cn x (rs ++ ks) <= cn x (hand st)) ->
  (forall r, In r (rs ++ ks) -> exists ob, nth_error (hp st) r = Some ob /\
                                           rank ob < rank (mkObj k top 1 rs ks f false)) ->
  exists st', alloc_k k top rs ks f cont st = cont (length (hp st)) st' /\ Inv st' /\
              hp st' = hp st ++ [mkObj k top 1 rs ks f false] /\ regs st' = regs st /\
              (forall x, cn x (hand st') + cn x (rs ++ ks) = cn x [length (hp st)] + cn x (hand st)).
Proof.
  intros I Hc Hr. destruct (removes_ok (rs ++ ks) (hand st) Hc) as [l R].
  pose proof (rank_lt_all_complete _ _ _ Hr) as K.
  assert (A : alloc k top rs ks f st =
              Some (mkState (hp st ++ [mkObj k top 1 rs ks f false]) (files st) (regs st) (handles st)
                            (length (hp st) :: l) (leaked st) (elog st) (ct st))).
  { unfold alloc. rewrite R, K. reflexivity. }
  eexists. unfold alloc_k, rd, fresh, bind. rewrite A. split; [reflexivity|].
  split; [eapply pres_alloc; eauto|]. simpl. split; auto. split; auto.
  intros x. pose proof (removes_cn _ _ _ R x). rewrite !cn_cons, cn_nil. lia.
Qed.

Lemma revert_kids_ok : forall cs acc cont st, Inv st ->
  (forall c, In c cs -> exists ob, nth_error (hp st) c = Some ob /\ rank ob <= 2) ->
  exists st' ks, revert_kids cs acc cont st = cont (acc ++ ks) st' /\ Inv st' /\
                 shape (hp st) (hp st') /\ regs st' = regs st /\
                 (forall x, cn x (hand st') = cn x ks + cn x (hand st)) /\
                 (forall k, In k ks -> exists ob, nth_error (hp st') k = Some ob /\ rank ob = 2).
Proof.
  induction cs as [|c r IH]; intros acc cont st I H.
  - exists st, []. simpl. rewrite app_nil_r. split; auto. split; auto. split; [apply shape_refl|].
    split; auto. split; auto. intros k [].
  - destruct (H c (or_introl eq_refl)) as [obc [Ec Rc]].
    simpl. unfold rd at 1. unfold rd at 1.
    assert (Ems : refs_of c st = o_refs obc) by (unfold refs_of, refs_at; rewrite Ec; reflexivity).
    rewrite Ems.
    destruct (each_addref_ok (o_refs obc) st I) as [s1 [E1 [I1 [S1 [R1 H1]]]]].
    { intros m Hm. eapply in_allrefs; eauto. unfold orefs. apply in_or_app. left. exact Hm. }
    unfold bind at 1. rewrite E1.
    destruct (alloc_k_ok KFooter false (o_refs obc) [] (tag_of c st)
                (fun n => revert_kids r (acc ++ [n]) cont) s1 I1) as [s2 [E2 [I2 [Hp2 [R2 H2]]]]].
    { intros x. rewrite app_nil_r, H1. lia. }
    { intros m Hm. rewrite app_nil_r in Hm. destruct I as [_ _ C]. apply (shape_ranked (fun r => r < _) _ _ _ S1).
      destruct (C c obc m Ec) as [obm [Em Lm]]; [unfold orefs; apply in_or_app; left; exact Hm|].
      exists obm. split; auto. unfold rank at 2. simpl. lia. }
    rewrite E2. cbv beta.
    assert (S12 : shape (hp s1) (hp s2)) by (rewrite Hp2; apply shape_snoc).
    destruct (IH (acc ++ [length (hp s1)]) cont s2 I2) as [s3 [ks [E3 [I3 [S3 [R3 [H3 K3]]]]]]].
    { intros c' Hc'. apply (shape_ranked (fun r => r <= 2) _ _ _ (shape_trans _ _ _ S1 S12)), H. right. exact Hc'. }
    exists s3, (length (hp s1) :: ks).
    split; [etransitivity; [exact E3|]; rewrite <- app_assoc; reflexivity|]. split; auto.
    split; [eapply shape_trans; [exact S1|eapply shape_trans; eauto]|].
    split; [congruence|]. split.
    + intros x. rewrite H3. specialize (H2 x). rewrite app_nil_r in H2. rewrite H1 in H2.
      rewrite !cn_cons in *. rewrite cn_nil in H2. lia.
    + intros k [<-|Hk]; [|apply K3; exact Hk].
      assert (E : nth_error (hp s2) (length (hp s1)) = Some (mkObj KFooter false 1 (o_refs obc) [] (tag_of c st) false)).
      { rewrite Hp2. rewrite nth_error_app2 by lia. rewrite Nat.sub_diag. reflexivity. }
      apply (shape_ranked (fun r => r = 2) _ _ _ S3). eexists. split; [exact E|reflexivity].
Qed.

Lemma revert_footer_ok t cont st obt : Inv st ->
  nth_error (hp st) t = Some obt -> rank obt = 3 ->
  exists st' n, revert_footer t cont st = cont n st' /\ Inv st' /\ regs st' = regs st /\
                (forall x, cn x (hand st') = cn x [n] + cn x (hand st)).
Proof.
  intros I Et Rt. unfold revert_footer. unfold rd at 1.
  assert (Ems : refs_of t st = o_refs obt) by (unfold refs_of, refs_at; rewrite Et; reflexivity).
  rewrite Ems.
  destruct (each_addref_ok (o_refs obt) st I) as [s1 [E1 [I1 [S1 [R1 H1]]]]].
  { intros m Hm. eapply in_allrefs; eauto. unfold orefs. apply in_or_app. left. exact Hm. }
  unfold bind at 1. rewrite E1. unfold rd at 1.
  destruct (S1 t obt Et) as [obt1 [Et1 [Kt1 [Tt1 [Rf1 [Kd1 _]]]]]].
  assert (Ecs : kids_of t s1 = o_kids obt) by (unfold kids_of, kids_at; rewrite Et1; exact Kd1).
  rewrite Ecs.
  destruct (revert_kids_ok (o_kids obt) []
              (fun ks => alloc_k KFooter true (o_refs obt) ks 0 cont) s1 I1)
    as [s2 [ks [E2 [I2 [S2 [R2 [H2 K2]]]]]]].
  { intros c Hc. destruct I as [_ _ C]. apply (shape_ranked (fun r => r <= 2) _ _ _ S1).
    destruct (C t obt c Et) as [obc [Ec Lc]]; [unfold orefs; apply in_or_app; right; exact Hc|].
    exists obc. split; auto. lia. }
  rewrite E2. cbv beta. simpl app.
  destruct (alloc_k_ok KFooter true (o_refs obt) ks 0 cont s2 I2) as [s3 [E3 [I3 [Hp3 [R3 H3]]]]].
  { intros x. rewrite cn_app, H2, H1. lia. }
  { intros r Hr. apply in_app_or in Hr. destruct Hr as [Hr|Hr].
    - destruct I as [_ _ C]. apply (shape_ranked (fun r => r < _) _ _ _ (shape_trans _ _ _ S1 S2)).
      destruct (C t obt r Et) as [obm [Em Lm]]; [unfold orefs; apply in_or_app; left; exact Hr|].
      exists obm. split; auto. unfold rank at 2. simpl. lia.
    - destruct (K2 r Hr) as [obk [Ek Lk]]. exists obk. split; auto. unfold rank at 2. simpl. lia. }
  exists s3, (length (hp s2)). split; [exact E3|]. split; auto. split; [congruence|].
  intros x. specialize (H3 x). rewrite cn_app, H2, H1 in H3. unfold oid in *. lia.
Qed.

Lemma is_top_rank t st : is_top t st = true ->
  exists ob, nth_error (hp st) t = Some ob /\ rank ob = 3.
Proof.
  unfold is_top. destruct (nth_error (hp st) t) as [ob|]; [|discriminate].
  destruct (o_kind ob) eqn:K; try discriminate. intros T. exists ob. split; auto.
  unfold rank. rewrite K, T. reflexivity.
Qed.

Lemma decref_ok_last o st : Inv st -> (forall x, cn x (hand st) = cn x [o]) ->
  exists st', decref o st = Some st' /\ hand st' = [].
Proof.
  intros I H.
  assert (Hin : In o (hand st)) by (apply cn_in; rewrite H, cn_cons, Nat.eqb_refl; lia).
  destruct (decref_of_held_reference_succeeds st o I Hin) as [s D]. exists s. split; [exact D|].
  apply cn_zero_nil. intros x. unfold decref in D.
  destruct (remove1 o (hand st)) as [l|] eqn:Rm; [|discriminate].
  destruct (release _ _ _ _ _) as [[[h2 f2] g2]|]; [|discriminate]. inversion D; subst; simpl.
  pose proof (remove1_cn _ _ _ Rm x) as Q. rewrite H in Q.
  rewrite cn_cons, cn_nil in Q. destruct (Nat.eqb o x); lia.
Qed.

(* footerPrev := s.footer; s.footer = footer; footerPrev.DecRef() *)
Lemma swap_ok n s1 : Inv s1 -> (forall x, cn x (hand s1) = cn x [n]) ->
  exists s', rd (reg SFooter) (fun prev => take SFooter ;; put SFooter n ;; odecref prev) s1 = Some s' /\
             hand s' = [].
Proof.
  intros I1 H1. unfold rd, reg.
  set (prev := regs s1 SFooter).
  set (s2 := mkState (hp s1) (files s1) (rset (regs s1) SFooter None) (handles s1)
                     (olist prev ++ hand s1) (leaked s1) (elog s1) (ct s1)).
  assert (T : take SFooter s1 = Some s2) by reflexivity.
  assert (I2 : Inv s2) by (apply (pres_take SFooter s1 s2 I1); exact T).
  assert (Hn : In n (hand s2)).
  { simpl. apply in_or_app. right. apply cn_in. rewrite H1, cn_cons, Nat.eqb_refl. lia. }
  destruct (in_remove1 n _ Hn) as [l2 Rm2].
  set (s3 := mkState (hp s2) (files s2) (rset (regs s2) SFooter (Some n)) (handles s2) l2
                     (leaked s2) (elog s2) (ct s2)).
  assert (P : put SFooter n s2 = Some s3).
  { unfold put. simpl regs at 1. unfold rset at 1. simpl slot_eqb. cbv iota. rewrite Rm2. reflexivity. }
  assert (I3 : Inv s3) by (apply (pres_put SFooter n s2 s3 I2); exact P).
  assert (H3 : forall x, cn x (hand s3) = cn x (olist prev)).
  { intros x. pose proof (remove1_cn _ _ _ Rm2 x) as Q. simpl in Q. rewrite cn_app, H1 in Q.
    simpl hand. rewrite cn_cons, !cn_nil in Q. destruct (Nat.eqb n x); lia. }
  unfold bind. rewrite T, P. unfold odecref. destruct prev as [p|]; simpl whenS.
  - apply decref_ok_last; auto.
  - exists s3. split; [reflexivity|]. apply cn_zero_nil. intros x. rewrite H3. reflexivity.
Qed.

Lemma op_revert_ok st h m : Inv st -> hand st = [] ->
  exists s', op_revert h m st = Some s' /\ hand s' = [].
Proof.
  intros I Hh. unfold op_revert, guard.
  destruct (sopen (ct st)); [|eauto].
  unfold rd at 1. destruct (nth_error (handles st) h) as [[s|t|a b c|a b c]|]; try (unfold ret; eauto).
  unfold rd at 1. destruct (revert_legal t st) eqn:L; [|unfold ret; eauto].
  unfold revert_legal in L. apply andb_prop in L. destruct L as [L _].
  apply andb_prop in L. destruct L as [L _]. destruct (is_top_rank t st L) as [obt [Et Rt]].
  destruct m; [| unfold ret; eauto |].
  - (* the revert is written and installed *)
    destruct (revert_footer_ok t
                (fun n => rd (reg SFooter) (fun prev => take SFooter ;; put SFooter n ;; odecref prev))
                st obt I Et Rt) as [s1 [n [E1 [I1 [R1 H1]]]]].
    rewrite E1. apply swap_ok; auto. intros x. rewrite H1, Hh, cn_nil. unfold oid in *. lia.
  - (* persistFooter fails: the new footer is given back *)
    destruct (revert_footer_ok t (fun n => decref n) st obt I Et Rt) as [s1 [n [E1 [I1 [R1 H1]]]]].
    rewrite E1. apply decref_ok_last; auto. intros x. rewrite H1, Hh, cn_nil. unfold oid in *. lia.
Qed.

Theorem x_revert_never_faults : forall st h m,
  Inv st -> hand st = [] -> exists st', xstep (XRevert h m) st = Some st'.
Proof.
  intros st h m I Hh. destruct (op_revert_ok st h m I Hh) as [s [E Hs]].
  exists s. unfold xstep, bind. simpl xbody. rewrite E. unfold finish. rewrite Hs. reflexivity.
Qed.

(* after every history, with every handle and outcome *)
Lemma xrun_from_app a : forall b st, xrun_from st (a ++ b) =
  match xrun_from st a with Some s => xrun_from s b | None => None end.
Proof.
  induction a as [|x r IH]; intros b st; simpl; auto. destruct (xstep x st); auto.
Qed.

Theorem x_revert_never_faults_after_any_history : forall ops st h m,
  xrun ops = Some st -> exists st', xrun (ops ++ [XRevert h m]) = Some st'.
Proof.
  intros ops st h m H. unfold xrun in *. rewrite xrun_from_app, H. simpl.
  destruct (x_revert_never_faults st h m (xrun_inv ops st H) (x_locals_released ops st H)) as [st' E].
  rewrite E. eauto.
Qed.

Print Assumptions x_revert_never_faults.
Print Assumptions x_revert_never_faults_after_any_history.
