(* CrashFilesFacts.v - what every crash image of a directory that keeps the discipline
   [files_ok] can hold: the reopened store serves a footer at least as new as the newest
   footer that was ever made durable - whatever was or was not synced afterwards. *)
From Coq Require Import List Arith Bool Lia.
From Moss Require Import CrashFiles.
Import ListNotations.

Local Arguments maxl : simpl never.

Lemma maxl_cons a l : maxl (a :: l) = Nat.max a (maxl l).
Proof. reflexivity. Qed.

Lemma maxl_ge l x : In x l -> x <= maxl l.
Proof.
  induction l as [|a l IH]; [intros []|]. rewrite maxl_cons.
  intros [<-|H]; [apply Nat.le_max_l|]. specialize (IH H).
  etransitivity; [exact IH|apply Nat.le_max_r].
Qed.

Lemma maxl_in l : l <> [] -> In (maxl l) l.
Proof.
  induction l as [|a l IH]; [congruence|]. intros _. rewrite maxl_cons.
  destruct l as [|b l'].
  - left. cbn. now rewrite Nat.max_0_r.
  - assert (Hn : b :: l' <> []) by congruence. specialize (IH Hn).
    destruct (Nat.max_spec a (maxl (b :: l'))) as [[_ E]|[_ E]]; rewrite E; [right; exact IH|left; reflexivity].
Qed.

Lemma upd_same m f x : upd m f x f = x.
Proof. unfold upd. now rewrite Nat.eqb_refl. Qed.
Lemma upd_other m f x g : g <> f -> upd m f x g = m g.
Proof. unfold upd. intros H. apply Nat.eqb_neq in H. now rewrite H. Qed.

Lemma newer_has_footer_false s lo n :
  newer_has_footer s lo n = false ->
  forall b, lo <= b < lo + n -> d_exists (files s b) = true -> footers (files s b) = [].
Proof.
  revert lo. induction n as [|n IH]; intros lo H b Hb Hex; [lia|].
  cbn in H. apply orb_false_iff in H as [H1 H2].
  destruct (Nat.eq_dec b lo) as [->|Hne].
  - rewrite Hex in H1. cbn in H1. destruct (footers (files s lo)); [reflexivity|discriminate].
  - apply (IH (S lo) H2); [lia|exact Hex].
Qed.

Lemma any_exists_false s lo n :
  any_exists s lo n = false -> forall b, lo <= b < lo + n -> d_exists (files s b) = false.
Proof.
  revert lo. induction n as [|n IH]; intros lo H b Hb; [lia|].
  cbn in H. apply orb_false_iff in H as [H1 H2].
  destruct (Nat.eq_dec b lo) as [->|Hne]; [exact H1|]. apply (IH (S lo) H2). lia.
Qed.

Lemma holds_in x id : holds x id = true <-> In id (d_durable x).
Proof.
  unfold holds. rewrite existsb_exists. split.
  - intros (y & Hy & E). apply Nat.eqb_eq in E. now subst.
  - intros H. exists id. split; [exact H|apply Nat.eqb_refl].
Qed.

Record Inv (s : dstate) : Prop := {
  i_ids : forall f id, In id (footers (files s f)) -> id < next_id s;
  i_order : forall a b, a < b -> d_exists (files s a) = true -> d_exists (files s b) = true ->
            forall i j, In i (footers (files s a)) -> In j (footers (files s b)) -> i < j;
  i_holder : forall g, g_synced s = Some g ->
             exists y, d_exists (files s y) = true /\ In g (d_durable (files s y));
  i_hi : forall f, d_exists (files s f) = true -> f < hi s;
  i_newest : forall g, g_synced s = Some g ->
             forall f id, d_exists (files s f) = true -> In id (d_durable (files s f)) -> id <= g;
  i_none : g_synced s = None ->
           forall f, d_exists (files s f) = true -> d_durable (files s f) = []
}.

Lemma inv_init : Inv dinit.
Proof. constructor; cbn; try discriminate; try contradiction; intros; try discriminate; auto. Qed.

Lemma omax_none a l : omax a l = None -> a = None /\ l = [].
Proof. destruct l, a; cbn; intros H; try discriminate H; auto. Qed.

Lemma omax_ub a l g :
  omax a l = Some g -> (forall g0, a = Some g0 -> g0 <= g) /\ (forall x, In x l -> x <= g).
Proof.
  destruct l as [|y l]; [cbn; intros ->; split; [intros g0 [= ->]; lia|intros x []]|].
  destruct a as [g1|]; cbn [omax]; intros [= <-]; split.
  - intros g0 [= <-]. lia.
  - intros x Hx. pose proof (maxl_ge _ _ Hx). lia.
  - intros g0 [=].
  - apply maxl_ge.
Qed.

Lemma omax_wit a l g : omax a l = Some g -> a = Some g \/ In g l.
Proof.
  destruct l as [|y l]; [auto|]. assert (Hin : In (maxl (y :: l)) (y :: l)) by (apply maxl_in; congruence).
  destruct a as [g1|]; cbn [omax]; intros [= <-]; [|right; exact Hin].
  destruct (Nat.max_spec g1 (maxl (y :: l))) as [[_ ->]|[_ ->]]; auto.
Qed.

Definition Struct (s : dstate) : Prop :=
  (forall f id, In id (footers (files s f)) -> id < next_id s) /\
  (forall a b, a < b -> d_exists (files s a) = true -> d_exists (files s b) = true ->
     forall i j, In i (footers (files s a)) -> In j (footers (files s b)) -> i < j) /\
  (forall f, d_exists (files s f) = true -> f < hi s).

Definition Dur (s : dstate) : Prop :=
  (forall g, g_synced s = Some g ->
     exists y, d_exists (files s y) = true /\ In g (d_durable (files s y))) /\
  (forall g, g_synced s = Some g ->
     forall f id, d_exists (files s f) = true -> In id (d_durable (files s f)) -> id <= g) /\
  (g_synced s = None -> forall f, d_exists (files s f) = true -> d_durable (files s f) = []).

Lemma Inv_halves s : Inv s <-> Struct s /\ Dur s.
Proof.
  split; [intros []; repeat split; assumption|].
  intros ((A & B & C) & (D & E & F)). constructor; assumption.
Qed.

(* every event replaces the record of one file; a footer it adds is numbered from next_id
   on, and then no newer file holds one *)
Lemma struct_upd s f x h' n' gs :
  Struct s -> next_id s <= n' -> hi s <= h' -> (d_exists x = true -> f < h') ->
  (forall id, In id (footers x) -> In id (footers (files s f)) \/
     next_id s <= id < n' /\ forall b, f < b -> d_exists (files s b) = true -> footers (files s b) = []) ->
  (d_exists x = true -> d_exists (files s f) = true \/ footers x = []) ->
  Struct {| files := upd (files s) f x; hi := h'; next_id := n'; g_synced := gs |}.
Proof.
  intros (A & B & C) Hn Hh Hx Hf He.
  assert (Hf' : forall g id, In id (footers (upd (files s) f x g)) -> In id (footers (files s g)) \/
                g = f /\ next_id s <= id < n' /\
                forall b, f < b -> d_exists (files s b) = true -> footers (files s b) = []).
  { intros g id. destruct (Nat.eq_dec g f) as [->|Hne]; [rewrite upd_same|rewrite upd_other by exact Hne; auto].
    intros H. destruct (Hf id H); auto. }
  assert (He' : forall g, d_exists (upd (files s) f x g) = true ->
                d_exists (files s g) = true \/ footers (upd (files s) f x g) = []).
  { intros g. destruct (Nat.eq_dec g f) as [->|Hne]; [rewrite upd_same; exact He|].
    rewrite upd_other by exact Hne. auto. }
  split; [|split]; cbn.
  - intros g id Hin. destruct (Hf' g id Hin) as [H|(_ & H & _)]; [specialize (A g id H)|]; lia.
  - intros a b Hab Ea Eb i j Hi Hj.
    destruct (He' a Ea) as [Ea0|E]; [|rewrite E in Hi; destruct Hi].
    destruct (He' b Eb) as [Eb0|E]; [|rewrite E in Hj; destruct Hj].
    destruct (Hf' b j Hj) as [Hj0|(-> & Hlt & _)].
    2: { destruct (Hf' a i Hi) as [Hi0|(-> & _)]; [specialize (A a i Hi0)|]; lia. }
    destruct (Hf' a i Hi) as [Hi0|(-> & _ & Hnf)]; [apply (B a b Hab Ea0 Eb0); auto|].
    rewrite (Hnf b Hab Eb0) in Hj0. destruct Hj0.
  - intros g. destruct (Nat.eq_dec g f) as [->|Hne]; [rewrite upd_same; exact Hx|].
    rewrite upd_other by exact Hne. intros H. specialize (C g H). lia.
Qed.

Lemma dur_upd s f x h' n' :
  Dur s ->
  (d_exists x = true -> d_exists (files s f) = true /\ incl (d_durable x) (d_durable (files s f)) \/
                         d_durable x = []) ->
  (forall g, g_synced s = Some g -> d_exists (files s f) = true -> In g (d_durable (files s f)) ->
     d_exists x = true /\ In g (d_durable x)) ->
  Dur {| files := upd (files s) f x; hi := h'; next_id := n'; g_synced := g_synced s |}.
Proof.
  intros (A & B & C) Hd Hk.
  assert (Hd' : forall g id, d_exists (upd (files s) f x g) = true -> In id (d_durable (upd (files s) f x g)) ->
                d_exists (files s g) = true /\ In id (d_durable (files s g))).
  { intros g id. destruct (Nat.eq_dec g f) as [->|Hne]; [rewrite upd_same|rewrite upd_other by exact Hne; auto].
    intros Ex Hin. destruct (Hd Ex) as [(E & Hi)|E]; [auto|rewrite E in Hin; destruct Hin]. }
  split; [|split]; cbn.
  - intros g Eg. destruct (A g Eg) as (y & Hy & Hin). exists y.
    destruct (Nat.eq_dec y f) as [->|Hne]; [rewrite upd_same; apply (Hk g Eg Hy Hin)|].
    rewrite upd_other by exact Hne. auto.
  - intros g Eg g0 id Ex Hin. destruct (Hd' g0 id Ex Hin) as (Ex0 & Hin0). apply (B g Eg g0 id Ex0 Hin0).
  - intros Eg g0 Ex. destruct (d_durable (upd (files s) f x g0)) as [|id l] eqn:E; [reflexivity|].
    destruct (Hd' g0 id Ex) as (Ex0 & Hin0); [rewrite E; left; reflexivity|].
    rewrite (C Eg g0 Ex0) in Hin0. destruct Hin0.
Qed.

Lemma step_inv s e : Inv s -> ev_ok s e = true -> Inv (dstep s e).
Proof.
  intros HI Hok. apply Inv_halves. pose proof (proj1 (Inv_halves s) HI) as (HS & HD).
  destruct e as [f|f|f|f]; cbn [dstep ev_ok] in *.
  - (* create: no file at or above f exists *)
    apply negb_true_iff in Hok.
    assert (Hnone : d_exists (files s f) = false).
    { destruct (d_exists (files s f)) eqn:E; [|reflexivity]. pose proof (i_hi s HI f E) as Hlt.
      rewrite <- E. apply (any_exists_false s f (hi s - f) Hok). lia. }
    split.
    + apply struct_upd; cbn; auto; [lia|lia|intros x []].
    + apply dur_upd; cbn; auto. intros g _ E. congruence.
  - (* footer: no newer existing file holds a footer *)
    apply andb_true_iff in Hok as [Hex Hnew]. apply negb_true_iff in Hnew.
    assert (Hnf : forall b, f < b -> d_exists (files s b) = true -> footers (files s b) = []).
    { intros b Hb E. pose proof (i_hi s HI b E).
      apply (newer_has_footer_false s (S f) (hi s - S f) Hnew); [lia|exact E]. }
    split.
    + apply struct_upd; cbn; auto; [apply (i_hi s HI)|].
      intros id [<-|H]; [right; split; [lia|exact Hnf]|left; exact H].
    + apply dur_upd; cbn; auto. intros _. left. split; [exact Hex|apply incl_refl].
  - (* sync *)
    split.
    + apply struct_upd; cbn; auto. apply (i_hi s HI).
    + destruct (d_exists (files s f)) eqn:Hex.
      2: { apply dur_upd; cbn; [exact HD|discriminate|congruence]. }
      destruct HD as (A & B & C).
      (* what was durable before is no newer than the new g_synced *)
      assert (Hold : forall g, omax (g_synced s) (d_pending (files s f)) = Some g ->
                forall y id, d_exists (files s y) = true -> In id (d_durable (files s y)) -> id <= g).
      { intros g Hg y id Hy Hin. destruct (omax_ub _ _ _ Hg) as (U & _).
        destruct (g_synced s) as [g1|] eqn:Eg.
        - specialize (B g1 eq_refl y id Hy Hin). specialize (U g1 eq_refl). lia.
        - rewrite (C eq_refl y Hy) in Hin. destruct Hin. }
      split; [|split]; cbn.
      * intros g Hg. destruct (omax_wit _ _ _ Hg) as [Eg|Hin].
        -- destruct (A g Eg) as (y & Hy & Hin). exists y.
           destruct (Nat.eq_dec y f) as [->|Hne]; [rewrite upd_same; cbn|rewrite upd_other by exact Hne]; auto.
           split; [reflexivity|]. apply in_or_app. right. exact Hin.
        -- exists f. rewrite upd_same; cbn. split; [reflexivity|]. apply in_or_app. left. exact Hin.
      * intros g Hg g0 id. destruct (Nat.eq_dec g0 f) as [->|Hne].
        -- rewrite upd_same; cbn. intros _ Hin. apply in_app_or in Hin as [Hin|Hin].
           ++ apply (omax_ub _ _ _ Hg), Hin.
           ++ apply (Hold g Hg f id Hex Hin).
        -- rewrite upd_other by exact Hne. apply (Hold g Hg).
      * intros Hg g0. destruct (omax_none _ _ Hg) as (Eg & Ep).
        destruct (Nat.eq_dec g0 f) as [->|Hne].
        -- rewrite upd_same; cbn. intros _. unfold footers. rewrite Ep. apply (C Eg f Hex).
        -- rewrite upd_other by exact Hne. apply (C Eg).
  - (* unlink: not the file that holds g_synced *)
    split.
    + apply struct_upd; cbn; auto; discriminate.
    + apply dur_upd; cbn; [exact HD|discriminate|].
      intros g Hg Hy Hin. rewrite Hg, Hy in Hok. apply (proj2 (holds_in _ _)) in Hin.
      rewrite Hin in Hok. discriminate.
Qed.

Lemma fold_left_app_step (tr : list fev) e s :
  fold_left dstep (tr ++ [e]) s = dstep (fold_left dstep tr s) e.
Proof. now rewrite fold_left_app. Qed.

Lemma files_ok_from_inv tr : forall s, Inv s -> files_ok_from s tr = true ->
  forall n, Inv (fold_left dstep (firstn n tr) s).
Proof.
  induction tr as [|e tr IH]; intros s HI Hok n.
  - destruct n; exact HI.
  - cbn in Hok. apply andb_true_iff in Hok as [H1 H2].
    destruct n as [|n]; [exact HI|]. cbn. apply IH; [now apply step_inv|exact H2].
Qed.

Theorem files_ok_inv tr n : files_ok tr = true -> Inv (drun (firstn n tr)).
Proof. intros H. apply (files_ok_from_inv tr dinit inv_init H n). Qed.

(* power failure: a file keeps every footer a Sync has covered and any subset of the footers
   written since (a footer is a single write: present or absent - torn ones are Crash.v's and
   FileFormat's subject and count as absent) *)
Definition img_ok (s : dstate) (img : image) : Prop :=
  forall f, (d_exists (files s f) = true -> incl (d_durable (files s f)) (img f)) /\
            incl (img f) (footers (files s f)).

Lemma reopen_from_finds s img n y :
  y < n -> d_exists (files s y) = true -> img y <> [] ->
  exists z, reopen_from s img n = Some (z, maxl (img z)) /\ y <= z < n /\
            d_exists (files s z) = true /\ img z <> [].
Proof.
  induction n as [|n IH]; intros Hy Hex Hne; [lia|].
  cbn. destruct (d_exists (files s n) && negb (match img n with [] => true | _ => false end)) eqn:E.
  - apply andb_true_iff in E as [E1 E2]. exists n. split; [reflexivity|]. split; [lia|]. split; [exact E1|].
    destruct (img n); [discriminate|congruence].
  - destruct (Nat.eq_dec y n) as [->|Hyn].
    + rewrite Hex in E. cbn in E. destruct (img n); [congruence|discriminate].
    + destruct (IH ltac:(lia) Hex Hne) as (z & Hr & Hz & Hez & Hnz).
      exists z. split; [exact Hr|]. split; [lia|]. auto.
Qed.

Theorem reopen_serves_at_least_synced s img g :
  Inv s -> img_ok s img -> g_synced s = Some g ->
  exists z id, reopen s img = Some (z, id) /\ g <= id /\ In id (img z) /\
               d_exists (files s z) = true.
Proof.
  intros HI Himg Hg. destruct (i_holder s HI g Hg) as (y & Hy & Hin).
  assert (Hgy : In g (img y)) by (apply (proj1 (Himg y) Hy); exact Hin).
  assert (Hne : img y <> []) by (intros E; rewrite E in Hgy; destruct Hgy).
  destruct (reopen_from_finds s img (hi s) y (i_hi s HI y Hy) Hy Hne) as (z & Hr & Hz & Hez & Hnz).
  exists z, (maxl (img z)). split; [exact Hr|]. split; [|split; [now apply maxl_in|exact Hez]].
  destruct (Nat.eq_dec z y) as [->|Hzy].
  - now apply maxl_ge.
  - assert (Hj : In (maxl (img z)) (footers (files s z))) by (apply (proj2 (Himg z)); now apply maxl_in).
    assert (Hi : In g (footers (files s y))) by (unfold footers; apply in_or_app; now right).
    pose proof (i_order s HI y z ltac:(lia) Hy Hez g _ Hi Hj). lia.
Qed.

(* THE THEOREM: a trace that keeps the discipline, cut at ANY point, any crash image: the
   reopened directory serves a footer at least as new as the newest footer ever made durable *)
Theorem crash_serves_at_least_last_synced tr n img g :
  files_ok tr = true ->
  let s := drun (firstn n tr) in
  img_ok s img -> g_synced s = Some g ->
  exists z id, reopen s img = Some (z, id) /\ g <= id /\ In id (img z).
Proof.
  intros Hok s Himg Hg.
  destruct (reopen_serves_at_least_synced s img g (files_ok_inv tr n Hok) Himg Hg) as (z & id & H1 & H2 & H3 & _).
  eauto.
Qed.

(* the newest durable footer only grows: a round that completed with syncing stays covered *)
Lemma g_synced_step_mono s e g : g_synced s = Some g -> exists g', g_synced (dstep s e) = Some g' /\ g <= g'.
Proof.
  intros Hg. destruct e as [f|f|f|f]; cbn; try (exists g; split; [exact Hg|lia]).
  destruct (d_exists (files s f)); [|exists g; split; [exact Hg|lia]].
  rewrite Hg. destruct (d_pending (files s f)) as [|p ps]; cbn; [exists g; split; [reflexivity|lia]|].
  eexists; split; [reflexivity|lia].
Qed.

Theorem g_synced_mono tr2 : forall s g, g_synced s = Some g ->
  exists g', g_synced (fold_left dstep tr2 s) = Some g' /\ g <= g'.
Proof.
  induction tr2 as [|e r IH]; intros s g Hg; cbn; [exists g; split; [exact Hg|lia]|].
  destruct (g_synced_step_mono s e g Hg) as (g1 & H1 & Hle).
  destruct (IH (dstep s e) g1 H1) as (g2 & H2 & Hle2). exists g2. split; [exact H2|lia].
Qed.

(* a footer that was synced while its file existed is covered by g_synced from then on *)
Lemma sync_covers s f id :
  d_exists (files s f) = true -> In id (d_pending (files s f)) ->
  exists g, g_synced (dstep s (FSync f)) = Some g /\ id <= g.
Proof.
  intros Hex Hin. cbn. rewrite Hex.
  destruct (omax (g_synced s) (d_pending (files s f))) as [g|] eqn:E.
  - exists g. split; [reflexivity|]. apply (omax_ub _ _ _ E), Hin.
  - destruct (omax_none _ _ E) as (_ & Ep). rewrite Ep in Hin. destruct Hin.
Qed.

(* pinned code, NoSync rounds after a synced one, zero-valued CompactionSyncAfterBytes: the
   trace is rejected, and the image in which nothing un-synced reached the disk reopens to
   NOTHING although footer 0 had been made durable *)
Theorem unsynced_compaction_loses_synced_round_refuted :
  files_ok tr_unsynced_compaction = false /\
  exists img, let s := drun tr_unsynced_compaction in
    img_ok s img /\ g_synced s = Some 0 /\ reopen s img = None.
Proof.
  split; [reflexivity|].
  exists (fun _ => []). cbv zeta. split; [|split; reflexivity].
  intros f. split.
  - destruct f as [|[|[|f]]]; vm_compute; intros H; try discriminate H; intros x [].
  - intros x [].
Qed.

(* the repaired order keeps the discipline (and the theorem is not vacuous) *)
Example synced_compaction_ok :
  files_ok tr_synced_compaction = true /\ g_synced (drun tr_synced_compaction) = Some 1.
Proof. split; reflexivity. Qed.

(* without the second clause (a footer written below a newer file that holds one: F30) *)
Definition tr_stale_newer_file : list fev :=
  [FCreate 1; FFooter 1; FSync 1; FCreate 2; FFooter 2; FSync 2; FFooter 1; FSync 1].
Theorem footer_below_newer_file_refuted :
  files_ok tr_stale_newer_file = false /\
  exists img, let s := drun tr_stale_newer_file in
    img_ok s img /\ g_synced s = Some 2 /\ reopen s img = Some (2, 1).
Proof.
  split; [reflexivity|].
  exists (fun f => match f with 1 => [2; 0] | 2 => [1] | _ => [] end). cbv zeta.
  split; [|split; reflexivity].
  intros f. destruct f as [|[|[|f]]]; split; try (intros _); vm_compute; intros x Hx; tauto.
Qed.

Print Assumptions crash_serves_at_least_last_synced.
