From Coq Require Import List NArith Bool Lia.
From Moss Require Import OpenDir.

Lemma open_loop_skip o all seq st rest :
  (forall fid, st <> FValid fid) ->
  open_loop o all ((seq, st) :: rest) =
  (fst (open_loop o all rest), EOpen seq (o_readonly o) :: snd (open_loop o all rest)).
Proof.
  intros Hs. destruct st; [destruct (Hs _ eq_refl)| ..];
    simpl; destruct (open_loop o all rest); reflexivity.
Qed.

Lemma open_loop_ro_effects o all l :
  o_readonly o = true -> forallb (fun e => negb (mutating e)) (snd (open_loop o all l)) = true.
Proof.
  intros Hro. induction l as [|[seq st] r IH]; [reflexivity|].
  destruct st.
  2-4: rewrite open_loop_skip by discriminate; simpl; rewrite Hro; exact IH.
  simpl. rewrite Hro, orb_true_r. reflexivity.
Qed.

(* C18: a read-only open performs no mutating effect, whatever the directory holds *)
Theorem readonly_open_never_mutates o d :
  o_readonly o = true -> forallb (fun e => negb (mutating e)) (snd (open_store o d)) = true.
Proof.
  intros Hro. unfold open_store. destruct d as [|x r]; auto.
  apply open_loop_ro_effects; auto.
Qed.

Theorem readonly_persist_never_mutates o cur has_data compacts :
  o_readonly o = true -> persist_effects o cur has_data compacts = [].
Proof. intros H. unfold persist_effects. now rewrite H. Qed.

(* which file is served: the newest one with a valid footer *)
Fixpoint newest_valid (newest_first : list (N * fstate)) : option (N * N) :=
  match newest_first with
  | [] => None
  | (seq, FValid fid) :: _ => Some (seq, fid)
  | _ :: r => newest_valid r
  end.

Theorem open_serves_newest_valid o d :
  d <> [] ->
  fst (open_store o d) =
    match newest_valid (rev d) with Some (s, f) => Opened s f | None => OpenFailed end.
Proof.
  intros Hd. unfold open_store. destruct d as [|x r]; [congruence|].
  generalize (map fst (x :: r)) as all. generalize (rev (x :: r)) as l.
  induction l as [|[seq st] l IH]; intros all; [reflexivity|].
  destruct st; [reflexivity| ..]; rewrite open_loop_skip by discriminate; apply IH.
Qed.

(* what a read-write open removes: exactly the other data files (unless KeepFiles) *)
Theorem open_removes_only_others o d seq fid :
  fst (open_store o d) = Opened seq fid ->
  forall s, In (ERemove s) (snd (open_store o d)) -> s <> seq /\ In s (map fst d).
Proof.
  unfold open_store. destruct d as [|x r]; [discriminate|].
  generalize (map fst (x :: r)) as all. generalize (rev (x :: r)) as l.
  induction l as [|[sq st] l IH]; intros all; [discriminate|].
  destruct st.
  2-4: rewrite open_loop_skip by discriminate; simpl;
       intros H s [H1|H1]; [discriminate|]; apply (IH all); auto.
  simpl. intros [= <- <-] s [H|H]; [discriminate|].
  destruct (o_keepfiles o || o_readonly o); [destruct H|].
  apply in_map_iff in H. destruct H as [y [[= <-] Hy]].
  apply filter_In in Hy. destruct Hy as [Hy1 Hy2].
  apply negb_true_iff, N.eqb_neq in Hy2. auto.
Qed.
