(* TreeFacts.v — per-node facts about the tree model: every step that
   rewrites a node of some section or of the footer preserves what that node
   reads, and child nodes are handled independently of their siblings and of
   the parent's own keys. *)
From Coq Require Import List NArith Bool Lia Arith.
From Moss Require Import Bytes BytesFacts Segment SegmentFacts Stack StackFacts
     Collection CollectionFacts Store StoreFacts Tree TreeColl TreeInv.

(* merge_node, append_footer, compact_node and refresh_llcap rebuild the child
   list of a stack node name by name *)
Definition map_kids {A B} (f : cname -> A -> B) (l : list (cname * A)) : list (cname * B) :=
  map (fun p => (fst p, f (fst p) (snd p))) l.

Lemma assoc_map_kids {A B} (f : cname -> A -> B) l n :
  assoc n (map_kids f l) = option_map (f n) (assoc n l).
Proof.
  induction l as [|[n' a] r IH]; [reflexivity|]. cbn [map_kids map fst snd assoc].
  destruct (beqb n' n) eqn:E; [|exact IH]. apply beqb_true in E. now subst n'.
Qed.

Lemma names_map_kids {A B} (f : cname -> A -> B) l : map fst (map_kids f l) = map fst l.
Proof. unfold map_kids. rewrite map_map. reflexivity. Qed.

Lemma sel_some n i o c : sel n i o = Some c -> ss_incar c = i /\ assoc n (okids o) = Some c.
Proof.
  destruct o as [s|]; simpl; [|discriminate].
  destruct (assoc n (ss_kids s)) as [c'|]; [|discriminate].
  destruct (N.eqb (ss_incar c') i) eqn:E; [|discriminate].
  intros [= <-]. apply N.eqb_eq in E. auto.
Qed.

(* selecting incarnation i of a child commutes with rebuilding; B is sstack
   with sel, or fnode with fsel *)
Lemma sel_map_kids {B} (incB : B -> N) (g : cname -> N -> sstack -> B) s n i :
  (forall c, incB (g n (ss_incar c) c) = ss_incar c) ->
  match assoc n (map_kids (fun n c => g n (ss_incar c) c) (ss_kids s)) with
  | Some y => if N.eqb (incB y) i then Some y else None
  | None => None
  end = option_map (g n i) (sel n i (Some s)).
Proof.
  intros Hi. rewrite assoc_map_kids. cbn [sel].
  destruct (assoc n (ss_kids s)) as [c|]; [|reflexivity]. cbn [option_map]. rewrite Hi.
  destruct (N.eqb (ss_incar c) i) eqn:E; [|reflexivity]. apply N.eqb_eq in E. now subst i.
Qed.

Definition lt_sub (t : lvltree) (n : cname) : lvltree :=
  match assoc n (lt_kids t) with Some x => x | None => LT 0 [] end.

(* refreshing the lower-level snapshots at hand-over *)
Lemma refresh_llcap_segs m s ll : ss_segs (refresh_llcap m s ll) = ss_segs s.
Proof. destruct s; reflexivity. Qed.
Lemma refresh_llcap_incar m s ll : ss_incar (refresh_llcap m s ll) = ss_incar s.
Proof. destruct s; reflexivity. Qed.
Lemma refresh_llcap_llcap m s ll : ss_llcap (refresh_llcap m s ll) = ll.
Proof. destruct s; reflexivity. Qed.

Lemma refresh_llcap_kids_eq m s ll :
  ss_kids (refresh_llcap m s ll)
  = map_kids (fun n ch => match assoc n (cn_kids m) with
                          | Some cm => if N.eqb (cn_incar cm) (ss_incar ch)
                                       then refresh_llcap cm ch (fsel n (cn_incar cm) ll)
                                       else ch
                          | None => ch
                          end) (ss_kids s).
Proof.
  destruct s as [a inc l0 kids]. cbn [refresh_llcap ss_kids].
  induction kids as [|[n c] r IH]; [reflexivity|]. cbn [map_kids map]. now rewrite IH.
Qed.

Lemma sel_refresh m s ll n cm :
  assoc n (cn_kids m) = Some cm ->
  sel n (cn_incar cm) (Some (refresh_llcap m s ll))
  = option_map (fun ch => refresh_llcap cm ch (fsel n (cn_incar cm) ll)) (sel n (cn_incar cm) (Some s)).
Proof.
  intros Ea. cbn [sel]. rewrite refresh_llcap_kids_eq, assoc_map_kids.
  destruct (assoc n (ss_kids s)) as [ch|]; [|reflexivity].
  cbn [option_map]. rewrite Ea, (N.eqb_sym (cn_incar cm)).
  destruct (N.eqb (ss_incar ch) (cn_incar cm)) eqn:E; [now rewrite refresh_llcap_incar, E|now rewrite E].
Qed.

(* restore's local loop: the restored children get increasing incarnation
   numbers above the parent's *)
Fixpoint rs_go (l : list (cname * fnode)) (hi : N)
  : N * list (cname * cnode) * list (cname * fnode) :=
  match l with
  | [] => (hi, [], [])
  | (n, cf) :: r =>
      let hi' := (hi + 1)%N in
      let '(cc, cf') := restore hi' cf in
      let '(hi2, ck, fk) := rs_go r hi' in
      (hi2, (n, cc) :: ck, (n, cf') :: fk)
  end.

Lemma rs_go_spec l : forall hi hi2 ck fk,
    rs_go l hi = (hi2, ck, fk) ->
    (hi <= hi2)%N /\ map fst ck = map fst l /\ map fst fk = map fst l /\
    forall n,
      match assoc n l with
      | None => assoc n ck = None /\ assoc n fk = None
      | Some cf => exists i, (hi < i <= hi2)%N /\
                             assoc n ck = Some (fst (restore i cf)) /\
                             assoc n fk = Some (snd (restore i cf))
      end.
Proof.
  induction l as [|[n0 cf0] r IH]; intros hi hi2 ck fk E.
  - cbn [rs_go] in E. injection E as <- <- <-. repeat split; auto. lia.
  - cbn [rs_go] in E.
    destruct (restore (hi + 1) cf0) as [cc cf'] eqn:Er.
    destruct (rs_go r (hi + 1)) as [[h2 ck0] fk0] eqn:Eg.
    injection E as <- <- <-.
    destruct (IH _ _ _ _ Eg) as (Hh & Hc & Hf & Hs).
    split; [lia|]. split; [cbn [map fst]; now rewrite Hc|].
    split; [cbn [map fst]; now rewrite Hf|].
    intros n. cbn [assoc]. destruct (beqb n0 n) eqn:En.
    + exists (hi + 1)%N. rewrite Er. cbn [fst snd]. split; [lia|]. auto.
    + specialize (Hs n). destruct (assoc n r) as [cf|]; auto.
      destruct Hs as (i & Hi & H1 & H2). exists i. split; [lia|]. auto.
Qed.

Lemma restore_spec i f :
  exists hi ck fk,
    restore i f = (CN i hi ck, FN (fn_segs f) i fk) /\ (i <= hi)%N /\
    map fst ck = map fst (fn_kids f) /\ map fst fk = map fst (fn_kids f) /\
    forall n,
      match assoc n (fn_kids f) with
      | None => assoc n ck = None /\ assoc n fk = None
      | Some cf => exists j, (i < j <= hi)%N /\
                             assoc n ck = Some (fst (restore j cf)) /\
                             assoc n fk = Some (snd (restore j cf))
      end.
Proof.
  destruct f as [a j kids].
  change (restore i (FN a j kids)) with (let '(hi, ck, fk) := rs_go kids i in (CN i hi ck, FN a i fk)).
  destruct (rs_go kids i) as [[hi ck] fk] eqn:Eg.
  exists hi, ck, fk. split; [reflexivity|]. exact (rs_go_spec _ _ _ _ _ Eg).
Qed.

Section WithMerge.
  Variable fm : bytes -> value -> bytes -> value.
  Notation sget := (sget fm).

  (* the node's own `below` as merge_node computes it *)
  Definition node_below (s : sstack) (base : option sstack) : bytes -> value :=
    match base with
    | Some b => sget (ss_segs b) (fn_get fm (ss_llcap b))
    | None => fn_get fm (ss_llcap s)
    end.

  Lemma merge_node_segs t s base :
    exists lvl, ss_segs (merge_node fm t s base) = merge_stack fm lvl (ss_segs s) (node_below s base).
  Proof. destruct s as [a inc ll kids]. eexists. reflexivity. Qed.

  Lemma merge_node_incar t s base : ss_incar (merge_node fm t s base) = ss_incar s.
  Proof. destruct s; reflexivity. Qed.

  Lemma merge_node_kids_eq t s base :
    ss_kids (merge_node fm t s base)
    = map_kids (fun n c => merge_node fm (lt_sub t n) c (sel n (ss_incar c) base)) (ss_kids s).
  Proof.
    destruct s as [a inc ll kids]. cbn [merge_node ss_kids].
    induction kids as [|[n c] r IH]; [reflexivity|]. cbn [map_kids map]. now rewrite IH.
  Qed.

  (* merging a node keeps its reads over whatever it was merged against *)
  Lemma merge_node_view_over t s base below :
    (forall k, node_below s base k = below k) ->
    forall k, sget (ss_segs (merge_node fm t s base)) below k = sget (ss_segs s) below k.
  Proof.
    intros H k. destruct (merge_node_segs t s base) as [lvl ->]. now apply merge_stack_view_ext.
  Qed.

  Theorem merge_node_view t s base k :
    sget (ss_segs (merge_node fm t s base)) (node_below s base) k
    = sget (ss_segs s) (node_below s base) k.
  Proof. now apply merge_node_view_over. Qed.

  (* merging never adds, drops or renames child nodes, and keeps incarnations *)
  Theorem merge_node_kids t s base :
    map fst (ss_kids (merge_node fm t s base)) = map fst (ss_kids s) /\
    ss_incar (merge_node fm t s base) = ss_incar s.
  Proof. rewrite merge_node_kids_eq, names_map_kids, merge_node_incar. auto. Qed.

  (* a child is merged against the base's child of the same name only when it
     is the same incarnation *)
  Theorem merge_node_child t s base n c :
    assoc n (ss_kids s) = Some c ->
    exists t' bc,
      assoc n (ss_kids (merge_node fm t s base)) = Some (merge_node fm t' c bc) /\
      (forall x, bc = Some x -> ss_incar x = ss_incar c).
  Proof.
    intros E. rewrite merge_node_kids_eq, assoc_map_kids, E.
    do 2 eexists. split; [reflexivity|]. intros x Hx. now apply sel_some in Hx.
  Qed.

  (* appending to the footer: the node reads as the stack over the old node *)
  Theorem append_footer_view f s k :
    sget (fn_segs (append_footer f s)) no_below k
    = sget (ss_segs s) (fn_get fm f) k.
  Proof.
    destruct s as [a inc ll kids]. simpl.
    rewrite sget_app, sget_filter_nonempty.
    apply sget_ext. destruct f; reflexivity.
  Qed.

  (* compaction of a node at any splice point keeps what it reads *)
  Theorem compact_node_view sp f s k :
    sget (fn_segs (compact_node fm sp (negb (Nat.eqb sp 0)) f s)) no_below k
    = sget (ss_segs s) (fn_get fm f) k.
  Proof.
    destruct s as [a inc ll kids].
    transitivity (Collection.llv fm (compact fm sp a (match f with Some x => fn_segs x | None => [] end)) k).
    { reflexivity. }
    rewrite compact_view. apply sget_ext. destruct f; reflexivity.
  Qed.

  Lemma append_footer_incar f s : fn_incar (append_footer f s) = ss_incar s.
  Proof. destruct s; reflexivity. Qed.

  Lemma append_footer_kids_eq f s :
    fn_kids (append_footer f s)
    = map_kids (fun n c => append_footer (fsel n (ss_incar c) f) c) (ss_kids s).
  Proof.
    destruct s as [a inc ll kids]. cbn [append_footer fn_kids ss_kids].
    induction kids as [|[n c] r IH]; [reflexivity|]. cbn [map_kids map]. rewrite IH.
    destruct f; reflexivity.
  Qed.

  Lemma fsel_append_footer f s n i :
    fsel n i (Some (append_footer f s))
    = option_map (fun c => append_footer (fsel n i f) c) (sel n i (Some s)).
  Proof.
    cbn [fsel]. rewrite append_footer_kids_eq.
    exact (sel_map_kids fn_incar (fun n i c => append_footer (fsel n i f) c) s n i
             (fun c => append_footer_incar _ c)).
  Qed.

  Lemma compact_node_incar sp incl f s : fn_incar (compact_node fm sp incl f s) = ss_incar s.
  Proof. destruct s; reflexivity. Qed.

  Lemma compact_node_kids_eq sp incl f s :
    fn_kids (compact_node fm sp incl f s)
    = map_kids (fun n c => compact_node fm 0 incl (fsel n (ss_incar c) f) c) (ss_kids s).
  Proof.
    destruct s as [a inc ll kids]. cbn [compact_node fn_kids ss_kids].
    induction kids as [|[n c] r IH]; [reflexivity|]. cbn [map_kids map]. rewrite IH.
    destruct f; reflexivity.
  Qed.

  Lemma fsel_compact_node sp incl f s n i :
    fsel n i (Some (compact_node fm sp incl f s))
    = option_map (fun c => compact_node fm 0 incl (fsel n i f) c) (sel n i (Some s)).
  Proof.
    cbn [fsel]. rewrite compact_node_kids_eq.
    exact (sel_map_kids fn_incar (fun n i c => compact_node fm 0 incl (fsel n i f) c) s n i
             (fun c => compact_node_incar _ _ _ c)).
  Qed.

  (* compaction of a node keeps what it reads: at the root's splice point, and
     for the children (full range, the root's deletion flag) *)
  Lemma compact_node_view_gen sp incl f s k :
    incl = negb (Nat.eqb sp 0) \/ sp = 0 ->
    sget (fn_segs (compact_node fm sp incl f s)) no_below k = sget (ss_segs s) (fn_get fm f) k.
  Proof.
    intros [->| ->]; [apply compact_node_view|].
    destruct incl; [|apply (compact_node_view 0)].
    destruct s as [a inc ll kids]. cbn [compact_node fn_segs ss_segs].
    set (fs := match f with Some x => fn_segs x | None => [] end).
    rewrite Nat.sub_0_r, firstn_all, skipn_all.
    rewrite (merge_preserves_view fm _ (a ++ fs) [] no_below (merge_range_ok fm false (a ++ fs) [] no_below)).
    rewrite app_nil_r, sget_app. apply sget_ext. destruct f; reflexivity.
  Qed.

  Lemma sel_merge_node t s base n i :
    sel n i (Some (merge_node fm t s base))
    = option_map (fun c => merge_node fm (lt_sub t n) c (sel n i base)) (sel n i (Some s)).
  Proof.
    cbn [sel]. rewrite merge_node_kids_eq.
    exact (sel_map_kids ss_incar (fun n i c => merge_node fm (lt_sub t n) c (sel n i base)) s n i
             (fun c => merge_node_incar _ c _)).
  Qed.

  (* reopening renumbers incarnations but keeps every segment and child name *)
  Theorem restore_keeps_content inc f :
    fn_segs (snd (restore inc f)) = fn_segs f /\
    map fst (fn_kids (snd (restore inc f))) = map fst (fn_kids f) /\
    cn_incar (fst (restore inc f)) = inc /\ fn_incar (snd (restore inc f)) = inc.
  Proof.
    destruct (restore_spec inc f) as (hi & ck & fk & -> & _ & _ & Hf & _). cbn. auto.
  Qed.

  (* isolation, parent side: whatever a batch does to child collections, the
     parent's pending stack only receives the batch's own top-level ops *)
  Theorem build_top_parent_segs m ops bkids cur :
    ss_segs (snd (build_top m (TB ops bkids) cur))
    = batch_segs ops ++ match cur with Some s => ss_segs s | None => [] end.
  Proof.
    simpl.
    destruct ((fix go (l : list (cname * option tbatch)) acc := _) bkids (cn_highest m, cn_kids m, []))
      as [[hi mk] rv].
    reflexivity.
  Qed.

  (* ... and a batch without top-level ops leaves every parent read unchanged *)
  Corollary child_only_batch_keeps_parent_reads m bkids cur below k :
    sget (ss_segs (snd (build_top m (TB [] bkids) (Some cur)))) below k
    = sget (ss_segs cur) below k.
  Proof. rewrite build_top_parent_segs. reflexivity. Qed.
End WithMerge.
