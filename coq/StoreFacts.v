(* StoreFacts.v — every way the lower level is updated yields a snapshot that
   reads as "the handed-down stack over the old lower level" — the legality
   condition publish_ok of the collection model.  At the end, determineExponent:
   for a factor >= 2 the fuel of det_exp_aux never decides; for a factor of 1 the
   loop of the code does not end. *)
From Coq Require Import List NArith Bool Lia Arith.
From Moss Require Import Bytes BytesFacts Segment SegmentFacts Stack StackFacts
     Collection CollectionFacts Store LowerLevel.

Section WithMerge.
  Variable fm : bytes -> value -> bytes -> value.
  Notation sget := (sget fm).
  Notation llv := (llv fm).

  Lemma find_empty_seg (s : segment) k : nonempty s = false -> find s k = None.
  Proof. destruct s; simpl; auto. discriminate. Qed.

  Lemma sget_filter_nonempty st below k : sget (filter nonempty st) below k = sget st below k.
  Proof.
    induction st as [|s r IH]; simpl; auto.
    destruct (nonempty s) eqn:E; simpl.
    - now rewrite IH.
    - now rewrite (find_empty_seg s k E).
  Qed.

  Theorem persist_append_view higher f k :
    llv (persist_append higher f) k = sget higher (llv f) k.
  Proof.
    unfold Collection.llv, persist_append. rewrite sget_app. apply sget_filter_nonempty.
  Qed.

  Theorem compact_view sp higher f k :
    llv (compact fm sp higher f) k = sget higher (llv f) k.
  Proof.
    unfold Collection.llv, compact.
    set (n := length f - sp).
    transitivity (sget ((higher ++ firstn n f) ++ skipn n f) no_below k).
    2:{ rewrite <- app_assoc, firstn_skipn. apply sget_app. }
    destruct (Nat.eqb sp 0) eqn:E; simpl negb.
    - apply Nat.eqb_eq in E. subst sp. unfold n. rewrite Nat.sub_0_r.
      rewrite firstn_all, skipn_all. rewrite !app_nil_r.
      apply compact_full_view.
    - apply merge_preserves_view. apply merge_range_ok.
  Qed.

  Theorem store_persist_view ch higher f f' k :
    store_persist fm ch higher f = Some f' -> llv f' k = sget higher (llv f) k.
  Proof.
    destruct ch as [| |sp]; simpl.
    - destruct (stack_is_empty higher) eqn:E; [|discriminate]. intros [= <-].
      destruct higher; [reflexivity|discriminate].
    - destruct (stack_is_empty higher); [discriminate|]. intros [= <-]. apply persist_append_view.
    - destruct (Nat.leb sp (length f)); [|discriminate].
      destruct (stack_is_empty higher && Nat.leb (length f) 1); [discriminate|].
      destruct (Nat.eqb sp 0); intros [= <-]; apply compact_view.
  Qed.

  (* --- the application lower level ------------------------------------- *)

  Definition set_only (m : segment) : Prop := forall k o, In (k, o) m -> exists v, o = OSet v.

  Lemma map_get_llv m k : set_only m -> map_get m k = llv [m] k.
  Proof.
    intros H. unfold map_get, Collection.llv. simpl.
    destruct (find m k) eqn:F; auto.
    apply find_some_in in F. destruct (H _ _ F) as [v ->]. reflexivity.
  Qed.

  Lemma proto_value_spec higher m k :
    proto_value fm higher m k = sget higher (map_get m) k.
  Proof.
    unfold proto_value. destruct (newest higher k) as [[v| |v]|] eqn:E; symmetry.
    - exact (sget_setdel fm _ _ _ _ E eq_refl).
    - exact (sget_setdel fm _ _ _ _ E eq_refl).
    - reflexivity.
    - now apply sget_none.
  Qed.

  Lemma build_map_ktab higher m ks :
    build_map fm higher m ks = ktab (fun k => option_map OSet (proto_value fm higher m k)) ks.
  Proof.
    induction ks as [|k r IH]; simpl; [reflexivity|]. rewrite IH.
    now destruct (proto_value fm higher m k).
  Qed.

  Lemma map_update_set_only higher m : set_only (map_update fm higher m).
  Proof.
    intros k o H. unfold map_update in H. rewrite build_map_ktab in H.
    apply ktab_in in H. destruct H as (_ & H).
    destruct (proto_value fm higher m k); inversion H; eauto.
  Qed.

  Lemma build_map_asc higher m ks : asc ks -> asc (keys (build_map fm higher m ks)).
  Proof. rewrite build_map_ktab. apply ktab_asc. Qed.

  Theorem map_update_view higher m k :
    set_only m -> llv [map_update fm higher m] k = sget higher (llv [m]) k.
  Proof.
    intros Hs. rewrite <- map_get_llv by apply map_update_set_only.
    rewrite (sget_ext fm higher (llv [m]) (map_get m) k) by (symmetry; apply map_get_llv; auto).
    rewrite <- proto_value_spec.
    unfold map_update, map_get. rewrite build_map_ktab, find_ktab.
    - now destruct (proto_value fm higher m k).
    - apply asc_NoDup, kunion_asc, kunion_asc. constructor.
    - rewrite !kunion_in. intros Hn. unfold proto_value, map_get.
      assert (find m k = None) as -> by (apply find_none_iff; tauto).
      now rewrite newest_notin by tauto.
  Qed.
End WithMerge.

(* determineExponent: the fuel never decides for a factor >= 2 ... *)
Lemma det_exp_stops (mult seg : N) :
  (2 <= mult)%N ->
  forall f sz lvl extra, (seg < sz * 2 ^ N.of_nat f)%N ->
    det_exp_aux mult seg sz lvl (f + extra) = det_exp_aux mult seg sz lvl f.
Proof.
  intros Hm. induction f as [|f IH]; intros sz lvl extra Hlt.
  - simpl in Hlt. rewrite N.mul_1_r in Hlt. simpl.
    destruct extra as [|e]; [reflexivity|]. simpl.
    destruct (N.leb_spec sz seg); [lia|]. reflexivity.
  - simpl. destruct (N.leb sz seg && N.ltb 0 sz) eqn:E; [|reflexivity].
    apply IH. rewrite Nat2N.inj_succ, N.pow_succ_r' in Hlt. nia.
Qed.

Theorem determine_exponent_fuel_suffices (mult seg cur : N) (lvl extra : nat) :
  (2 <= mult)%N -> (seg < 2 ^ 64)%N ->
  det_exp_aux mult seg (cur * mult) lvl (64 + extra) = determine_exponent mult seg cur lvl.
Proof.
  intros Hm Hs. unfold determine_exponent.
  destruct (N.eq_dec (cur * mult) 0) as [Z|NZ].
  - rewrite Z. simpl. destruct (N.leb 0 seg); reflexivity.
  - apply det_exp_stops; auto. change (N.of_nat 64) with 64%N. nia.
Qed.

(* ... and for a factor of 1 it ALWAYS decides: the loop of the code does not end (F40) *)
Theorem det_exp_mult_one_never_stops (seg sz : N) (lvl fuel : nat) :
  (0 < sz)%N -> (sz <= seg)%N -> det_exp_aux 1 seg sz lvl fuel = lvl + fuel.
Proof.
  intros Hp Hle. revert lvl. induction fuel as [|f IH]; intros lvl; simpl; [lia|].
  destruct (N.leb_spec sz seg); [|lia]. destruct (N.ltb_spec 0 sz); [|lia]. simpl.
  rewrite N.mul_1_r, IH. lia.
Qed.

(* the repaired code never works with a factor below 2 *)
Lemma eff_mult_ge_2 m : (2 <= eff_mult m)%N.
Proof. unfold eff_mult. destruct (N.ltb_spec m 2); lia. Qed.
