(* ListFacts.v — facts about lists that the standard library of Coq 8.16 lacks. *)
From Coq Require Import List Bool Arith Lia.
Import ListNotations.

Lemma In_firstn_in {A} n (l : list A) x : In x (firstn n l) -> In x l.
Proof. intros H. rewrite <- (firstn_skipn n l). apply in_or_app. now left. Qed.

Lemma In_skipn_in {A} n (l : list A) x : In x (skipn n l) -> In x l.
Proof. intros H. rewrite <- (firstn_skipn n l). apply in_or_app. now right. Qed.

Lemma firstn_app_le {A} n (l1 l2 : list A) : n <= length l1 -> firstn n (l1 ++ l2) = firstn n l1.
Proof.
  intros H. rewrite firstn_app. replace (n - length l1) with 0 by lia. apply app_nil_r.
Qed.

Lemma firstn_S_snoc {A} (l : list A) k x :
  nth_error l k = Some x -> firstn (S k) l = firstn k l ++ [x].
Proof.
  revert k. induction l as [|a l IH]; intros [|k] H; try discriminate.
  - now injection H as <-.
  - simpl. f_equal. now apply IH.
Qed.

Lemma firstn_length_app {A} (l1 l2 : list A) : firstn (length l1) (l1 ++ l2) = l1.
Proof. rewrite firstn_app_le by lia. apply firstn_all. Qed.

Lemma skipn_length_app {A} (l1 l2 : list A) : skipn (length l1) (l1 ++ l2) = l2.
Proof. induction l1; simpl; auto. Qed.

Lemma skipn_add {A} n m (l : list A) : skipn (n + m) l = skipn m (skipn n l).
Proof.
  revert l. induction n as [|n IH]; intros [|a l]; simpl; auto. now rewrite skipn_nil.
Qed.

Lemma skipn_S_tl {A} n (l : list A) : skipn (S n) l = tl (skipn n l).
Proof.
  revert l. induction n as [|n IH]; intros [|a l]; auto.
  change (skipn (S (S n)) (a :: l)) with (skipn (S n) l).
  change (skipn (S n) (a :: l)) with (skipn n l). apply IH.
Qed.

Lemma nth_error_snoc_last {A} (f : list A) x : nth_error (f ++ [x]) (length f) = Some x.
Proof. rewrite nth_error_app2 by lia. now rewrite Nat.sub_diag. Qed.

Lemma nth_error_snoc_old {A} (f : list A) x i :
  i < length f -> nth_error (f ++ [x]) i = nth_error f i.
Proof. apply nth_error_app1. Qed.

Lemma nth_error_snoc_inv {A} (f : list A) x i y :
  nth_error (f ++ [x]) i = Some y -> nth_error f i = Some y \/ i = length f /\ y = x.
Proof.
  intros H. destruct (Nat.lt_ge_cases i (length f)) as [Hi|Hi].
  - left. now rewrite nth_error_snoc_old in H.
  - rewrite nth_error_app2 in H by exact Hi.
    destruct (i - length f) as [|[|k]] eqn:E; try discriminate.
    injection H as <-. right. split; [lia|reflexivity].
Qed.

Lemma snoc_not_nil {A} (f : list A) x : f ++ [x] <> [].
Proof. destruct f; discriminate. Qed.

Lemma filter_all {A} (P : A -> bool) l : (forall x, In x l -> P x = true) -> filter P l = l.
Proof.
  induction l as [|a l IH]; simpl; intros H; auto.
  rewrite (H a (or_introl eq_refl)). f_equal. apply IH. intros; apply H; auto.
Qed.

Lemma filter_none {A} (P : A -> bool) l : (forall x, In x l -> P x = false) -> filter P l = [].
Proof.
  induction l as [|a l IH]; simpl; intros H; auto.
  rewrite (H a (or_introl eq_refl)). apply IH. intros; apply H; auto.
Qed.

Lemma filter_filter {A} (P Q : A -> bool) l :
  filter P (filter Q l) = filter (fun x => Q x && P x) l.
Proof.
  induction l as [|a l IH]; simpl; auto.
  destruct (Q a); simpl; [destruct (P a)|]; rewrite IH; auto.
Qed.

Lemma map_tl {A B} (f : A -> B) l : map f (tl l) = tl (map f l).
Proof. destruct l; reflexivity. Qed.
