(* FileFormatFacts.v — proofs about FileFormat.v. *)
From Coq Require Import ZArith NArith List Bool Lia ZifyN ZifyNat.
From Moss Require Import ListFacts Bytes BytesFacts Segment Codec CodecFacts FileFormat.
Open Scope N_scope.

Arguments N.mul : simpl never.
Arguments N.add : simpl never.
Arguments N.sub : simpl never.
Arguments N.div : simpl never.
Arguments N.modulo : simpl never.
Arguments N.pow : simpl never.

Lemma blen_nil : blen [] = 0.
Proof. reflexivity. Qed.

Lemma blen_app a b : blen (a ++ b) = blen a + blen b.
Proof. unfold blen. rewrite app_length. lia. Qed.

Lemma blen_cons c b : blen (c :: b) = 1 + blen b.
Proof. unfold blen. cbn [length]. lia. Qed.

Lemma blen_0_nil b : blen b = 0 -> b = [].
Proof. destruct b; [reflexivity|]. rewrite blen_cons. lia. Qed.

Lemma take_0 b : take 0 b = [].
Proof. reflexivity. Qed.

Lemma drop_0 b : drop 0 b = b.
Proof. reflexivity. Qed.

Lemma take_drop n b : take n b ++ drop n b = b.
Proof. apply firstn_skipn. Qed.

Lemma blen_take_min t f : blen (take t f) = N.min t (blen f).
Proof. unfold blen, take. rewrite firstn_length. lia. Qed.

Lemma blen_take n b : n <= blen b -> blen (take n b) = n.
Proof. rewrite blen_take_min. lia. Qed.

Lemma blen_take_le t f : blen (take t f) <= t.
Proof. rewrite blen_take_min. lia. Qed.

Lemma blen_drop n b : blen (drop n b) = blen b - n.
Proof. unfold blen, drop. rewrite skipn_length. lia. Qed.

Lemma take_all t f : blen f <= t -> take t f = f.
Proof. unfold take, blen. intro H. apply firstn_all2. lia. Qed.

Lemma take_app_ge (a c : bytes) t :
  blen a <= t -> take t (a ++ c) = a ++ take (t - blen a) c.
Proof.
  intro H. unfold take. rewrite firstn_app.
  rewrite firstn_all2 by (unfold blen in H; lia).
  do 2 f_equal. unfold blen. lia.
Qed.

Lemma take_app_exact a b : take (blen a) (a ++ b) = a.
Proof. rewrite take_app_ge, N.sub_diag by lia. apply app_nil_r. Qed.

Lemma drop_app_ge (a c : bytes) t :
  blen a <= t -> drop t (a ++ c) = drop (t - blen a) c.
Proof.
  intro H. unfold drop. rewrite skipn_app.
  rewrite skipn_all2 by (unfold blen in H; lia).
  cbn [app]. f_equal. unfold blen. lia.
Qed.

Lemma drop_app_exact a b : drop (blen a) (a ++ b) = b.
Proof. rewrite drop_app_ge, N.sub_diag by lia. reflexivity. Qed.

Lemma take_app_l n a b : n <= blen a -> take n (a ++ b) = take n a.
Proof.
  unfold take, blen. intro H. apply firstn_app_le. lia.
Qed.

Lemma drop_app_l n a b : n <= blen a -> drop n (a ++ b) = drop n a ++ b.
Proof.
  unfold drop, blen. intro H. rewrite skipn_app.
  replace (N.to_nat n - length a)%nat with 0%nat by lia. reflexivity.
Qed.

Lemma drop_drop n m b : drop n (drop m b) = drop (m + n) b.
Proof. unfold drop. rewrite <- skipn_add. f_equal. lia. Qed.

Lemma take_take n m b : n <= m -> take n (take m b) = take n b.
Proof. unfold take. intro H. rewrite firstn_firstn. f_equal. lia. Qed.

Lemma drop_take n m b : drop n (take (n + m) b) = take m (drop n b).
Proof. unfold drop, take. rewrite skipn_firstn_comm. f_equal. lia. Qed.

Lemma zeros_blen n : blen (zeros n) = n.
Proof. unfold blen, zeros. rewrite repeat_length. lia. Qed.

Lemma subs_0_take b n : subs b 0 n = take n b.
Proof. unfold subs. rewrite drop_0. f_equal. lia. Qed.

Lemma subs_app_l a b lo hi : lo <= hi -> hi <= blen a -> subs (a ++ b) lo hi = subs a lo hi.
Proof.
  intros H1 H2. unfold subs. rewrite drop_app_l by lia.
  apply take_app_l. rewrite blen_drop. lia.
Qed.

Lemma subs_app_add a b lo hi : subs (a ++ b) (blen a + lo) (blen a + hi) = subs b lo hi.
Proof.
  unfold subs. rewrite <- drop_drop, drop_app_exact. f_equal. lia.
Qed.

Lemma subs_app_at a b n : subs (a ++ b) (blen a) (blen a + n) = take n b.
Proof.
  rewrite <- (N.add_0_r (blen a)) at 1. rewrite subs_app_add. apply subs_0_take.
Qed.

Lemma subs_mid a b c : subs (a ++ b ++ c) (blen a) (blen a + blen b) = b.
Proof. rewrite subs_app_at. apply take_app_exact. Qed.

Lemma slice_some f off n x :
  slice f off n = Some x <-> off + n <= blen f /\ x = take n (drop off f).
Proof.
  unfold slice. destruct (N.leb_spec (off + n) (blen f)); split.
  - intros [= <-]. auto.
  - intros [_ ->]. reflexivity.
  - discriminate.
  - intros [H' _]. lia.
Qed.

Lemma slice_blen f off n x : slice f off n = Some x -> blen x = n.
Proof.
  intro H. apply slice_some in H as [Hb ->].
  apply blen_take. rewrite blen_drop. lia.
Qed.

Lemma slice_mid a b c : slice (a ++ b ++ c) (blen a) (blen b) = Some b.
Proof.
  apply slice_some. split.
  - rewrite !blen_app. lia.
  - rewrite drop_app_exact, take_app_exact. reflexivity.
Qed.

Lemma slice_mid' a b c off : off = blen a -> slice (a ++ b ++ c) off (blen b) = Some b.
Proof. intros ->. apply slice_mid. Qed.

Lemma slice_end a b off : off = blen a -> slice (a ++ b) off (blen b) = Some b.
Proof. intros ->. rewrite <- (app_nil_r b) at 1. apply slice_mid. Qed.

Lemma slice_app_l f c off n x : slice f off n = Some x -> slice (f ++ c) off n = Some x.
Proof.
  intro H. apply slice_some in H as [Hb ->]. apply slice_some. split.
  - rewrite blen_app. lia.
  - rewrite drop_app_l by lia. rewrite take_app_l; [reflexivity|].
    rewrite blen_drop. lia.
Qed.

Lemma slice_split f off n m x :
  slice f off (n + m) = Some x ->
  slice f off n = Some (take n x) /\ slice f (off + n) m = Some (drop n x).
Proof.
  intro H. apply slice_some in H as [Hb ->]. split; apply slice_some; split; try lia.
  - rewrite take_take by lia. reflexivity.
  - rewrite drop_take, drop_drop. reflexivity.
Qed.

Lemma slice_take_le f t off n :
  off + n <= t -> slice (take t f) off n = slice f off n.
Proof.
  intro H. destruct (N.le_gt_cases (blen f) t) as [Ht|Ht]; [now rewrite take_all|].
  rewrite <- (take_drop t f) at 2. unfold slice.
  rewrite blen_app, blen_take, blen_drop by lia.
  destruct (N.leb_spec (off + n) t); [|lia].
  destruct (N.leb_spec (off + n) (t + (blen f - t))); [|lia].
  rewrite drop_app_l, take_app_l by (rewrite ?blen_drop, blen_take; lia). reflexivity.
Qed.

Lemma slice_take_some f t off n x :
  slice (take t f) off n = Some x -> slice f off n = Some x.
Proof.
  intro H. rewrite <- (slice_take_le f t); [exact H|].
  apply slice_some in H as [Hb _]. pose proof (blen_take_le t f). lia.
Qed.

Lemma slice_take_app f c t off n x :
  slice f off n = Some x -> off + n <= t -> slice (take t (f ++ c)) off n = Some x.
Proof. intros H Ht. rewrite slice_take_le by exact Ht. apply slice_app_l, H. Qed.

Lemma read_at_slice f off n : 0 < n -> read_at f off n = slice f off n.
Proof. unfold read_at. destruct (N.eqb_spec n 0); [lia|auto]. Qed.

Lemma read_at_none f off n : 0 < n -> blen f < off + n -> read_at f off n = None.
Proof.
  intros Hn H. rewrite read_at_slice by exact Hn. unfold slice.
  destruct (N.leb_spec (off + n) (blen f)); [lia|reflexivity].
Qed.

Lemma read_at_fits f off n : off + n <= blen f -> exists x, read_at f off n = Some x.
Proof.
  intro H. unfold read_at, slice. destruct (n =? 0); [eauto|].
  destruct (N.leb_spec (off + n) (blen f)); [eauto|lia].
Qed.

Lemma write_at_append f off d :
  d <> [] -> blen f <= off -> write_at f off d = f ++ zeros (off - blen f) ++ d.
Proof.
  intros Hd Hle. unfold write_at. destruct d as [|c d]; [congruence|].
  destruct (N.leb_spec (blen f) off); [reflexivity|lia].
Qed.

Lemma write_at_nil f off : write_at f off [] = f.
Proof. reflexivity. Qed.

Lemma write_at_append_contains f off d :
  blen f <= off -> contains (write_at f off d) off d.
Proof.
  intros Hle Hd. rewrite write_at_append by assumption.
  rewrite app_assoc.
  apply slice_end. rewrite blen_app, zeros_blen. lia.
Qed.

Lemma write_at_append_blen f off d :
  blen f <= off -> blen (write_at f off d) <= off + blen d.
Proof.
  intro Hle. destruct d as [|c d]; [rewrite write_at_nil; lia|].
  rewrite write_at_append, !blen_app, zeros_blen by (assumption || discriminate). lia.
Qed.

Lemma write_at_append_keeps f off d off0 d0 :
  blen f <= off -> contains f off0 d0 -> contains (write_at f off d) off0 d0.
Proof.
  intros Hle Hc Hd0. destruct d as [|c d]; [rewrite write_at_nil; auto|].
  rewrite write_at_append by (assumption || discriminate).
  apply slice_app_l. auto.
Qed.

(* what load_segment reads for a region the file contains *)
Lemma contains_read f off d :
  contains f off d -> (if 0 <? blen d then slice f off (blen d) else Some []) = Some d.
Proof.
  intro H. destruct d as [|c d]; [reflexivity|].
  change (slice f off (blen (c :: d)) = Some (c :: d)). apply H. discriminate.
Qed.

Lemma words_of_cons w rest : words_of (le_u64 w ++ rest) = le_dec (le_u64 w) :: words_of rest.
Proof. reflexivity. Qed.

Lemma words_of_kvs_bytes ws :
  Forall (fun w => w < two64) ws -> words_of (kvs_bytes ws) = ws.
Proof.
  induction 1 as [|w ws Hw _ IH]; [reflexivity|].
  unfold kvs_bytes in *. cbn [flat_map]. rewrite words_of_cons, IH.
  f_equal. apply le_u64_roundtrip. exact Hw.
Qed.

Lemma u64_lt x : u64 x < two64.
Proof. unfold u64. apply N.mod_lt. discriminate. Qed.

Lemma kvs_words_lt s : forall off, Forall (fun w => w < two64) (kvs_words s off).
Proof.
  induction s as [|[k o] r IH]; intro off; cbn [kvs_words]; constructor.
  - apply encode_lt_two64.
  - constructor; [apply u64_lt | apply IH].
Qed.

Lemma kvs_bytes_blen ws : blen (kvs_bytes ws) = 8 * N.of_nat (length ws).
Proof.
  induction ws as [|w ws IH]; [reflexivity|].
  unfold kvs_bytes in *. cbn [flat_map length]. rewrite blen_app, IH.
  unfold blen, le_u64. rewrite le_enc_length. lia.
Qed.

Lemma sub_checked_mid a b c :
  sub_checked (a ++ b ++ c) (blen a) (blen a + blen b) = Some b.
Proof.
  unfold sub_checked. rewrite subs_mid, !blen_app.
  destruct (N.leb_spec (blen a) (blen a + blen b)); [|lia].
  destruct (N.leb_spec (blen a + blen b) (blen a + (blen b + blen c))); [reflexivity|lia].
Qed.

Lemma op_code_valid o : valid_op_code (op_code o).
Proof. destruct o; cbv [op_code valid_op_code]; auto. Qed.

Lemma mk_op_ok o : mk_op (op_code o) (op_val o) = Some o.
Proof. destruct o; reflexivity. Qed.

Lemma entry_decodes_at pre k o post :
  blen k <= maxKeyLength -> blen (op_val o) <= maxValLength ->
  get_operation_key_val (pre ++ (k ++ op_val o) ++ post)
    (encode (op_code o) (blen k) (blen (op_val o))) (blen pre) = Some (k, o).
Proof.
  intros Hk Hv. unfold get_operation_key_val.
  rewrite C19_word_roundtrip by (assumption || apply op_code_valid).
  rewrite <- app_assoc, (sub_checked_mid pre k).
  rewrite <- blen_app, (app_assoc pre k), (sub_checked_mid (pre ++ k)), mk_op_ok.
  reflexivity.
Qed.

(* keyStart is forced to 0 for the entry with no bytes: it then sits behind the
   empty prefix just as well *)
Lemma entry_decodes B pre k o post :
  B = pre ++ (k ++ op_val o) ++ post ->
  blen k <= maxKeyLength -> blen (op_val o) <= maxValLength -> blen B < two64 ->
  get_operation_key_val B (encode (op_code o) (blen k) (blen (op_val o)))
     (u64 (key_start_rule (blen pre) (blen k) (blen (op_val o)))) = Some (k, o).
Proof.
  intros HB Hk Hv HBl. unfold key_start_rule.
  destruct ((blen k =? 0) && (blen (op_val o) =? 0)) eqn:E.
  - apply andb_true_iff in E as [Ek%N.eqb_eq%blen_0_nil Ev%N.eqb_eq%blen_0_nil].
    change (u64 0) with (blen []).
    replace B with ([] ++ (k ++ op_val o) ++ B) at 1 by (now rewrite Ek, Ev).
    apply entry_decodes_at; assumption.
  - unfold u64. rewrite N.mod_small by (subst B; rewrite blen_app in HBl; lia).
    subst B. apply entry_decodes_at; assumption.
Qed.

Lemma entries_roundtrip s : forall pre B,
  B = pre ++ seg_buf s -> Forall entry_ok s -> blen B < two64 ->
  entries_of (kvs_words s (blen pre)) B = Some s.
Proof.
  induction s as [|[k o] r IH]; intros pre B HB Hok HBl; [reflexivity|].
  inversion Hok as [|e l [Hk Hv] Hr]; subst e l. cbn [fst snd] in Hk, Hv.
  cbn [kvs_words entries_of seg_buf] in *.
  rewrite (entry_decodes B pre k o (seg_buf r)); trivial;
    [| now rewrite <- app_assoc].
  replace (blen pre + blen k + blen (op_val o)) with (blen (pre ++ k ++ op_val o))
    by (rewrite !blen_app; lia).
  rewrite (IH (pre ++ k ++ op_val o) B); trivial.
  rewrite HB, <- !app_assoc. reflexivity.
Qed.

(* C19: a persisted segment loads back as itself, from any file that has the
   two written regions at their offsets — whatever the other bytes are. *)
Theorem C19_segment_roundtrip P pos s f :
  0 < P -> seg_ok s ->
  contains f (seg_kvs_pos P pos) (kvs_bytes (kvs_words s 0)) ->
  contains f (seg_buf_pos P pos s) (seg_buf s) ->
  load_segment f (persist_segment_loc P pos s) = Some s.
Proof.
  intros HP [Hok Hlen] Hkvs%contains_read Hbuf%contains_read.
  unfold load_segment, persist_segment_loc.
  cbn [KvsOffset KvsBytes BufOffset BufBytes].
  pose proof (ceil_ge P HP (seg_kvs_pos P pos + blen (kvs_bytes (kvs_words s 0)))) as Hbp.
  fold (seg_buf_pos P pos s) in Hbp.
  set (kvs := kvs_bytes (kvs_words s 0)) in *.
  set (kp := seg_kvs_pos P pos) in *.
  set (bp := seg_buf_pos P pos s) in *.
  destruct (N.ltb_spec (bp + blen (seg_buf s)) kp); [lia|].
  destruct (N.ltb_spec (bp + blen (seg_buf s) - kp) (blen kvs)); [lia|].
  destruct (N.ltb_spec bp kp); [lia|].
  rewrite Hbuf.
  (* words_of [] = [], so the conversion to words can be taken out of the test *)
  replace (if 0 <? blen kvs then option_map words_of (slice f kp (blen kvs)) else Some [])
    with (option_map words_of (if 0 <? blen kvs then slice f kp (blen kvs) else Some []))
    by (destruct (0 <? blen kvs); reflexivity).
  rewrite Hkvs. cbn [option_map]. unfold kvs.
  rewrite words_of_kvs_bytes by apply kvs_words_lt.
  apply (entries_roundtrip s [] (seg_buf s)); trivial.
  unfold two64. lia.
Qed.
Print Assumptions C19_segment_roundtrip.

(* the two writes of persistBasicSegment, applied at the end of a file (pos =
   finfo.Size()), leave both regions in the file *)
Lemma persist_segment_contains P pos s f :
  0 < P -> blen f <= pos ->
  let f' := apply_delta f (persist_segment P pos s) in
  contains f' (seg_kvs_pos P pos) (kvs_bytes (kvs_words s 0)) /\
  contains f' (seg_buf_pos P pos s) (seg_buf s).
Proof.
  intros HP Hpos. unfold apply_delta, persist_segment. cbn [fold_left fst snd].
  pose proof (ceil_ge P HP pos) as Hkp. fold (seg_kvs_pos P pos) in Hkp.
  pose proof (ceil_ge P HP (seg_kvs_pos P pos + blen (kvs_bytes (kvs_words s 0)))) as Hbp.
  fold (seg_buf_pos P pos s) in Hbp.
  pose proof (write_at_append_blen f (seg_kvs_pos P pos) (kvs_bytes (kvs_words s 0))) as Hlen.
  split.
  - apply write_at_append_keeps; [lia|]. apply write_at_append_contains. lia.
  - apply write_at_append_contains. lia.
Qed.

Lemma op_eqb_refl o : op_eqb o o = true.
Proof. destruct o; cbn [op_eqb]; auto using beqb_refl. Qed.

Lemma seg_eqb_refl s : seg_eqb s s = true.
Proof.
  induction s as [|[k o] r IH]; [reflexivity|].
  cbn [seg_eqb]. now rewrite beqb_refl, op_eqb_refl, IH.
Qed.

Theorem roundtrip_check_true P pos s :
  0 < P -> seg_ok s -> roundtrip_check P pos s = true.
Proof.
  intros HP Hok. unfold roundtrip_check.
  destruct (persist_segment_contains P pos s (zeros pos) HP) as [H1 H2].
  { rewrite zeros_blen. lia. }
  rewrite (C19_segment_roundtrip P pos s _ HP Hok H1 H2).
  apply seg_eqb_refl.
Qed.
Print Assumptions roundtrip_check_true.

(* "in particular": the empty key, empty values, bytes 0x00 / 0xFF, and keys
   and values equal to the footer magics are all covered by seg_ok *)
Definition corner_segment : segment :=
  [ ([], OSet []);
    ([0], OSet [255; 0; 255]);
    ([0; 0], ODel);
    (magicBeg, OSet magicEnd);
    (magicBeg ++ magicBeg, OMerge []);
    (magicEnd, OMerge (magicBeg ++ magicBeg ++ le_u32 4 ++ le_u32 44));
    ([255], OSet [0]);
    ([255; 255], ODel) ].

Lemma corner_segment_ok : seg_ok corner_segment.
Proof.
  split; [|reflexivity].
  repeat constructor; cbv; discriminate.
Qed.

Example C19_corner_roundtrip f P pos :
  0 < P ->
  contains f (seg_kvs_pos P pos) (kvs_bytes (kvs_words corner_segment 0)) ->
  contains f (seg_buf_pos P pos corner_segment) (seg_buf corner_segment) ->
  load_segment f (persist_segment_loc P pos corner_segment) = Some corner_segment.
Proof. intros HP. apply C19_segment_roundtrip; [exact HP | exact corner_segment_ok]. Qed.

Example C19_corner_roundtrip_computed : roundtrip_check 4096 5000 corner_segment = true.
Proof. vm_compute. reflexivity. Qed.

(* the only entry whose key start is forced to 0 *)
Example C19_empty_entry_image :
  kvs_words [([1], OSet [2]); ([], OSet [])] 0
  = [encode OperationSet 1 1; 0; encode OperationSet 0 0; 0].
Proof. vm_compute. reflexivity. Qed.

Definition footer_beg (L : N) : bytes :=
  magicBeg ++ magicBeg ++ le_u32 StoreVersion ++ le_u32 L.
Definition footer_data (F L : N) (json : bytes) : bytes :=
  json ++ le_u64 F ++ le_u32 L ++ magicEnd ++ magicEnd.

Lemma footer_bytes_split F json :
  footer_bytes F json = footer_beg (footer_len json) ++ footer_data F (footer_len json) json.
Proof. unfold footer_bytes, footer_beg, footer_data. now rewrite <- !app_assoc. Qed.

Lemma footer_beg_blen L : blen (footer_beg L) = footerBegLen.
Proof. reflexivity. Qed.

Lemma footer_data_blen F L json : blen (footer_data F L json) = blen json + footerEndLen.
Proof. unfold footer_data. rewrite blen_app. reflexivity. Qed.

Lemma footer_bytes_blen F json : blen (footer_bytes F json) = footer_len json.
Proof.
  rewrite footer_bytes_split, blen_app, footer_beg_blen, footer_data_blen.
  unfold footer_len. lia.
Qed.

(* lia does not look into the constants: this is what it is told about them *)
Lemma footer_len_eq json : footerBegLen = 20 /\ footer_len json = 44 + blen json.
Proof. unfold footer_len, footerBegLen, footerEndLen. lia. Qed.

Lemma footer_len_ge json : footerBegLen + footerEndLen <= footer_len json.
Proof. unfold footer_len. lia. Qed.

Lemma footer_bytes_nonnil F json : footer_bytes F json <> [].
Proof.
  intro E. apply (f_equal blen) in E. rewrite footer_bytes_blen in E.
  destruct (footer_len_eq json). change (blen []) with 0 in E. lia.
Qed.

(* the fields ScanFooter reads out of the first footerBegLen bytes *)
Lemma footer_beg_fields L :
  magic_beg_ok (footer_beg L) = true /\
  le_dec (subs (footer_beg L) 12 16) = StoreVersion /\
  subs (footer_beg L) 16 20 = le_u32 L.
Proof. repeat split; reflexivity. Qed.

(* ... and out of the remaining length - footerBegLen bytes.  Behind json the
   data has a known shape, on which subs computes. *)
Lemma footer_data_fields F L json :
  let d := footer_data F L json in
  let c := blen json in
  magic_end_ok d (c + footerEndLen) = true /\
  subs d c (c + 8) = le_u64 F /\
  subs d (c + 8) (c + 12) = le_u32 L /\
  subs d 0 c = json.
Proof.
  intros d c. unfold magic_end_ok, d, footer_data, footerEndLen, lenMagicEnd.
  replace (c + 24 - 6 * 2) with (c + 12) by lia.
  replace (c + 24 - 6) with (c + 18) by lia.
  unfold c. rewrite !subs_app_add, subs_app_at, (subs_0_take (json ++ _)), take_app_exact.
  repeat split; reflexivity.
Qed.

(* a complete footer in the file at F, split into the two reads *)
Lemma footer_reads f F json :
  slice f F (footer_len json) = Some (footer_bytes F json) ->
  slice f F footerBegLen = Some (footer_beg (footer_len json)) /\
  slice f (F + footerBegLen) (footer_len json - footerBegLen)
    = Some (footer_data F (footer_len json) json).
Proof.
  intro H.
  replace (footer_len json) with (footerBegLen + (footer_len json - footerBegLen)) in H at 1
    by (unfold footer_len; lia).
  apply slice_split in H as [H1 H2].
  rewrite footer_bytes_split, <- (footer_beg_blen (footer_len json)) in H1, H2.
  rewrite take_app_exact in H1. rewrite drop_app_exact in H2. auto.
Qed.

(* both versions of the loop body accept a complete, well-formed footer *)
Lemma step_at_footer f F json :
  slice f F (footer_len json) = Some (footer_bytes F json) ->
  F < 2 ^ 64 -> footer_len json < 2 ^ 32 ->
  scan_step f F = Done (Found F json) /\ scan_step_repaired f F = Done (Found F json).
Proof.
  intros Hs HF HL. destruct (footer_reads f F json Hs) as [R1 R2].
  destruct (footer_beg_fields (footer_len json)) as (B1 & B2 & B3).
  destruct (footer_data_fields F (footer_len json) json) as (D1 & D2 & D3 & D4).
  assert (En : footer_len json - footerBegLen = blen json + footerEndLen)
    by (unfold footer_len; lia).
  assert (Ec : footer_len json - footerBegLen - footerEndLen = blen json)
    by (unfold footer_len; lia).
  unfold scan_step, scan_step_repaired.
  rewrite !(read_at_slice f F footerBegLen) by reflexivity. rewrite R1.
  rewrite B1, B2, B3, le_u32_roundtrip by exact HL.
  change (StoreVersion =? StoreVersion) with true. cbn [negb].
  destruct (N.ltb_spec (footer_len json) footerBegLen); [unfold footer_len in *; lia|].
  destruct (N.ltb_spec (footer_len json) (footerBegLen + footerEndLen));
    [unfold footer_len in *; lia|].
  rewrite !(read_at_slice f (F + footerBegLen)), R2, Ec, En, D1
    by (rewrite En; unfold footerEndLen; lia).
  destruct (N.ltb_spec (blen json + footerEndLen) (lenMagicEnd * 2));
    [unfold footerEndLen, lenMagicEnd in *; lia|].
  rewrite D2, D3, D4, le_u64_roundtrip, le_u32_roundtrip by assumption.
  rewrite !N.eqb_refl. auto.
Qed.

(* the repaired loop body either moves on or accepts a footer at that very
   position — it never errors or panics *)
Lemma step_repaired_dichotomy f q :
  scan_step_repaired f q = Continue \/
  exists j, scan_step_repaired f q = Done (Found q j).
Proof.
  unfold scan_step_repaired.
  repeat match goal with
         | |- context [match ?x with _ => _ end] => destruct x
         end; eauto.
Qed.

Lemma step_repaired_no_magic f q : magic_at f q = false -> scan_step_repaired f q = Continue.
Proof.
  unfold magic_at, scan_step_repaired.
  destruct (read_at f q footerBegLen); [intros ->|]; reflexivity.
Qed.

Lemma step_no_magic f q :
  magic_at f q = false -> q + footerBegLen <= blen f -> scan_step f q = Continue.
Proof.
  intros M [beg R]%read_at_fits. unfold magic_at, scan_step in *. rewrite R in *.
  now rewrite M.
Qed.

Lemma step_short f q : blen f < q + footerBegLen -> scan_step f q = Done ScanError.
Proof. intro H. unfold scan_step. now rewrite read_at_none. Qed.

Lemma magic_at_short f q : blen f < q + footerBegLen -> magic_at f q = false.
Proof. intro H. unfold magic_at. now rewrite read_at_none. Qed.

Lemma magic_at_take f t q : magic_at f q = false -> magic_at (take t f) q = false.
Proof.
  unfold magic_at. rewrite !read_at_slice by reflexivity.
  destruct (slice (take t f) q footerBegLen) as [beg|] eqn:E; [|reflexivity].
  now rewrite (slice_take_some _ _ _ _ _ E).
Qed.

Lemma no_fake_take P f t lo F :
  no_fake_footer P f lo F -> no_fake_footer P (take t f) lo F.
Proof. intros Hnf q Ha Hlt Hne. apply magic_at_take, Hnf; assumption. Qed.

(* the head of a real footer whose tail is cut off *)
Lemma step_truncated f q L :
  read_at f q footerBegLen = Some (footer_beg L) ->
  footerBegLen + footerEndLen <= L -> L < 2 ^ 32 ->
  blen f < q + L ->
  scan_step_repaired f q = Continue /\ scan_step f q = Done ScanError.
Proof.
  intros R Hge HL Hcut.
  destruct (footer_beg_fields L) as (B1 & B2 & B3).
  unfold scan_step, scan_step_repaired.
  rewrite R, B1, B2, B3, le_u32_roundtrip by exact HL.
  change (StoreVersion =? StoreVersion) with true. cbn [negb].
  destruct (N.ltb_spec L (footerBegLen + footerEndLen)); [lia|].
  destruct (N.ltb_spec L footerBegLen); [lia|].
  rewrite read_at_none by (unfold footerEndLen in *; lia). auto.
Qed.

Lemma step_torn f t F j :
  slice f F (footer_len j) = Some (footer_bytes F j) -> footer_len j < 2 ^ 32 ->
  F + footerBegLen <= t -> t < F + footer_len j ->
  scan_step_repaired (take t f) F = Continue /\ scan_step (take t f) F = Done ScanError.
Proof.
  intros Hsl HL Ht1 Ht2.
  apply (step_truncated _ _ (footer_len j)); [|apply footer_len_ge|exact HL|].
  - rewrite read_at_slice, slice_take_le by (reflexivity || exact Ht1).
    apply (footer_reads f F j Hsl).
  - pose proof (blen_take_le t f). lia.
Qed.

(* "no complete, self-consistent footer at an aligned offset above lo": the
   repaired body accepts nowhere above lo.  By the dichotomy this is the same
   as: scan_step_repaired f q is never Done (Found _ _) there.  It is weaker
   than no_fake_footer: a fake magicBeg magicBeg start that fails validation
   (bad version, impossible length, short data, bad end magics, offset or
   length mismatch) is allowed. *)
Definition no_accepted_footer (P : N) (f : bytes) (lo : N) : Prop :=
  forall q, aligned P q -> lo < q -> scan_step_repaired f q = Continue.

Lemma no_accepted_footer_iff P f lo :
  no_accepted_footer P f lo <->
  (forall q, aligned P q -> lo < q ->
     forall p j, scan_step_repaired f q <> Done (Found p j)).
Proof.
  split.
  - intros H q Ha Hlt p j E. rewrite (H q Ha Hlt) in E. discriminate.
  - intros H q Ha Hlt. destruct (step_repaired_dichotomy f q) as [E|[j E]]; [exact E|].
    exfalso. exact (H q Ha Hlt q j E).
Qed.

Lemma no_fake_no_accepted P f lo : no_fake_footer P f lo lo -> no_accepted_footer P f lo.
Proof.
  intros Hnf q Ha Hlt. apply step_repaired_no_magic. apply Hnf; trivial. lia.
Qed.

Section Scan.
  Variable P : N.
  Hypothesis HP : footerBegLen <= P.      (* 20 <= P; the real P is 4096 *)

  Lemma P_pos : 0 < P.
  Proof. unfold footerBegLen in HP. lia. Qed.

  Lemma aligned_ge q : aligned P q -> 0 < q -> P <= q.
  Proof. intros Ha Hq. apply (aligned_gap P P_pos 0 q (aligned_0 P P_pos) Ha Hq). Qed.

  Lemma scan_descend q k :
    aligned P q -> 0 < q -> q < N.of_nat (S k) * P ->
    aligned P (q - P) /\ q - P < N.of_nat k * P.
  Proof.
    intros Ha Hq Hk. pose proof (aligned_ge q Ha Hq).
    split; [apply aligned_sub; [apply P_pos|exact Ha]|lia].
  Qed.

  Lemma scan_fuel_reaches p extra : p < N.of_nat (scan_fuel P p + extra) * P.
  Proof. unfold scan_fuel. destruct (pos_decomp P P_pos p). nia. Qed.

  (* "fuel = number of pages suffices": from a page-aligned position, any two
     fuels that reach below it give the same answer, so the fuel-exhausted
     branch of scan_loop never decides the result of scan_with. *)
  Lemma scan_loop_fuel step f : forall fuel1 fuel2 q,
    aligned P q -> q < N.of_nat fuel1 * P -> q < N.of_nat fuel2 * P ->
    scan_loop step fuel1 P f q = scan_loop step fuel2 P f q.
  Proof.
    induction fuel1 as [|k1 IH]; intros [|k2] q Ha H1 H2; try lia.
    cbn [scan_loop]. destruct (N.eqb_spec q 0) as [|Hq]; [reflexivity|].
    destruct (step f q); [reflexivity|].
    destruct (scan_descend q k1) as [Ha' H1']; try assumption; [lia|].
    destruct (scan_descend q k2) as [_ H2']; try assumption; [lia|].
    apply IH; assumption.
  Qed.

  Theorem scan_fuel_suffices step f pos extra :
    scan_loop step (scan_fuel P (pageAlignFloor P pos) + extra) P f (pageAlignFloor P pos)
    = scan_with step P f pos.
  Proof using HP.
    unfold scan_with. rewrite <- (Nat.add_0_r (scan_fuel P (pageAlignFloor P pos))) at 2.
    apply scan_loop_fuel; [apply floor_aligned, P_pos | apply scan_fuel_reaches ..].
  Qed.

  (* descending over positions that are skipped, down to [lo] where the scan
     stops: either lo = 0 (ErrNoValidFooter) or the body returns R at lo *)
  Definition stops_at (step : bytes -> N -> step_result) f lo R : Prop :=
    (lo = 0 /\ R = NoValidFooter) \/ (0 < lo /\ step f lo = Done R).

  Lemma scan_loop_reach step f lo R :
    aligned P lo -> stops_at step f lo R ->
    forall fuel q,
      aligned P q -> lo <= q -> q < N.of_nat fuel * P ->
      (forall q', aligned P q' -> lo < q' -> q' <= q -> step f q' = Continue) ->
      scan_loop step fuel P f q = R.
  Proof.
    intros Hlo Hstop. induction fuel as [|k IH]; intros q Ha Hle Hfuel Hskip; [lia|].
    cbn [scan_loop]. destruct (N.eqb_spec q 0) as [Hq0|Hq0].
    - destruct Hstop as [[_ ->]|[Hpos _]]; [reflexivity|lia].
    - destruct (N.eq_dec q lo) as [->|Hne].
      + destruct Hstop as [[-> _]|[_ ->]]; [lia|reflexivity].
      + rewrite (Hskip q Ha) by lia.
        pose proof (aligned_gap P P_pos lo q Hlo Ha) as Hgap.
        destruct (scan_descend q k) as [Ha' Hfuel']; try assumption; [lia|].
        apply IH; [exact Ha' | lia | exact Hfuel' |].
        intros q' Ha'' Hlt Hle'. apply Hskip; trivial. lia.
  Qed.

  Lemma scan_with_reach step f lo R pos :
    aligned P lo -> lo <= pos -> stops_at step f lo R ->
    (forall q, aligned P q -> lo < q -> q <= pageAlignFloor P pos -> step f q = Continue) ->
    scan_with step P f pos = R.
  Proof.
    intros Hlo Hle Hstop Hskip. unfold scan_with.
    rewrite <- (Nat.add_0_r (scan_fuel P _)).
    apply (scan_loop_reach step f lo R Hlo Hstop).
    - apply floor_aligned, P_pos.
    - apply floor_greatest; [apply P_pos|exact Hlo|exact Hle].
    - apply scan_fuel_reaches.
    - exact Hskip.
  Qed.

  Lemma scan_found step f F j :
    aligned P F -> 0 < F -> F < blen f -> step f F = Done (Found F j) ->
    (forall q, aligned P q -> F < q -> q <= pageAlignFloor P (blen f - 1) ->
               step f q = Continue) ->
    scan_with step P f (blen f - 1) = Found F j.
  Proof.
    intros Ha Hpos Hin Hstep Hskip.
    apply (scan_with_reach step f F); [exact Ha | lia | right; auto | exact Hskip].
  Qed.

  (* ANY file that holds a complete footer (F1, j1) at a page-aligned F1 > 0
     and in which the repaired body accepts nothing at an aligned offset above
     F1 — whatever else those later bytes are, however many there are — is
     read as (F1, j1). *)
  Theorem C05_repaired_general f' F1 j1 :
    aligned P F1 -> 0 < F1 ->
    slice f' F1 (footer_len j1) = Some (footer_bytes F1 j1) ->
    footer_len j1 < 2 ^ 32 -> F1 < 2 ^ 64 ->
    no_accepted_footer P f' F1 ->
    read_footer_repaired P f' = Found F1 j1.
  Proof using HP.
    intros Ha Hpos Hsl HL HF Hna.
    apply scan_found; trivial.
    - apply slice_some in Hsl as [Hb _]. destruct (footer_len_eq j1). lia.
    - apply (step_at_footer f' F1 j1 Hsl HF HL).
    - intros q Haq Hlt _. apply Hna; trivial.
  Qed.

  Lemma repaired_none f :
    no_accepted_footer P f 0 -> read_footer_repaired P f = NoValidFooter.
  Proof.
    intro Hna. apply (scan_with_reach scan_step_repaired f 0).
    - apply aligned_0, P_pos.
    - lia.
    - left. auto.
    - intros q Ha Hlt _. apply Hna; trivial.
  Qed.

  (* F43.  With the payload in the picture: ANY file that holds a complete footer (F1, j1)
     with a valid payload, and in which every candidate at an aligned offset above F1 is
     either not accepted by the framing checks or carries an INVALID payload (a torn
     multi-page footer whose first and last page made it to the disk), is read as (F1, j1). *)
  Definition no_valid_footer (valid : bytes -> bool) (f : bytes) (lo : N) : Prop :=
    forall q, aligned P q -> lo < q ->
      scan_step_repaired f q = Continue \/
      exists p j, scan_step_repaired f q = Done (Found p j) /\ valid j = false.

  Theorem C05_json_general valid f' F1 j1 :
    aligned P F1 -> 0 < F1 ->
    slice f' F1 (footer_len j1) = Some (footer_bytes F1 j1) ->
    footer_len j1 < 2 ^ 32 -> F1 < 2 ^ 64 ->
    valid j1 = true ->
    no_valid_footer valid f' F1 ->
    read_footer_json valid P f' = Found F1 j1.
  Proof using HP.
    intros Ha Hpos Hsl HL HF Hv Hna.
    apply scan_found; trivial; unfold scan_step_json.
    - apply slice_some in Hsl as [Hb _]. destruct (footer_len_eq j1). lia.
    - rewrite (proj2 (step_at_footer f' F1 j1 Hsl HF HL)), Hv. reflexivity.
    - intros q Haq Hlt _.
      destruct (Hna q Haq Hlt) as [E|(p & j & E & Hj)]; rewrite E; [reflexivity|].
      rewrite Hj. reflexivity.
  Qed.

  (* the pinned code on the same file: as soon as the newest accepted candidate has an
     invalid payload, the open fails although (F1, j1) is intact *)
  Theorem C05_json_pinned_refuted valid f' q p j :
    aligned P q -> 0 < q -> q <= blen f' - 1 ->
    scan_step_repaired f' q = Done (Found p j) -> valid j = false ->
    (forall q', aligned P q' -> q < q' -> q' <= blen f' - 1 ->
                scan_step_repaired f' q' = Continue) ->
    read_footer_json_pinned valid P f' = ScanError.
  Proof using HP.
    intros Ha Hpos Hle E Hj Habove.
    apply (scan_with_reach (scan_step_json_pinned valid) f' q ScanError _ Ha Hle);
      unfold scan_step_json_pinned.
    - right. split; [exact Hpos|]. rewrite E, Hj. reflexivity.
    - intros q' Haq Hlt Hle'. rewrite (Habove q' Haq Hlt); [reflexivity|].
      pose proof (floor_le P P_pos (blen f' - 1)). lia.
  Qed.

  Lemma footer_pos_ge g : blen g <= footer_pos P g.
  Proof. apply ceil_ge, P_pos. Qed.

  Lemma footer_pos_aligned g : aligned P (footer_pos P g).
  Proof. apply ceil_aligned, P_pos. Qed.

  Lemma persist_footer_eq g json :
    persist_footer P g json
    = g ++ zeros (footer_pos P g - blen g) ++ footer_bytes (footer_pos P g) json.
  Proof.
    unfold persist_footer. apply write_at_append.
    - apply footer_bytes_nonnil.
    - apply footer_pos_ge.
  Qed.

  Lemma build_snoc header rounds r :
    build P header (rounds ++ [r]) = add_round P (build P header rounds) r.
  Proof. unfold build. rewrite fold_left_app. reflexivity. Qed.

  Lemma last_footer g j F f :
    F = footer_pos P g -> f = persist_footer P g j ->
    aligned P F /\ blen g <= F /\ blen f = F + footer_len j /\
    slice f F (footer_len j) = Some (footer_bytes F j) /\ exists c, f = g ++ c.
  Proof.
    intros -> ->. pose proof (footer_pos_ge g) as Hge. rewrite persist_footer_eq.
    repeat apply conj.
    - apply footer_pos_aligned.
    - exact Hge.
    - rewrite !blen_app, zeros_blen, footer_bytes_blen. lia.
    - rewrite app_assoc, <- (footer_bytes_blen (footer_pos P g) j).
      apply slice_end. rewrite blen_app, zeros_blen. lia.
    - eauto.
  Qed.

  Theorem C05_scan_finds_last header rounds d json :
    let g := build P header rounds ++ d in
    let f := build P header (rounds ++ [(d, json)]) in
    let F := footer_pos P g in
    0 < blen g ->
    footer_len json < 2 ^ 32 -> F < 2 ^ 64 ->
    no_fake_footer P f F F ->
    footerBegLen <= blen f - pageAlignFloor P (blen f - 1) ->
    read_footer P f = Found F json.
  Proof using HP.
    intros g f F Hg HL HF Hnf Hlast.
    destruct (last_footer g json F f eq_refl (build_snoc _ _ _)) as (Ha & Hge & Hlen & Hsl & _).
    destruct (footer_len_eq json).
    apply scan_found; trivial; try lia.
    - apply (step_at_footer f F json Hsl HF HL).
    - intros q Haq Hlt Hq. apply step_no_magic; [apply Hnf; trivial; lia|].
      pose proof (floor_le P P_pos (blen f - 1)). lia.
  Qed.

  (* single-page footers always satisfy the last-page condition *)
  Lemma single_page_last f F L :
    aligned P F -> blen f = F + L -> 0 < L -> L <= P ->
    pageAlignFloor P (blen f - 1) = F.
  Proof.
    intros Ha Hlen Hge HLP.
    pose proof (floor_le P P_pos (blen f - 1)) as Hfl.
    pose proof (floor_aligned P P_pos (blen f - 1)) as Hal.
    assert (Hlo : F <= pageAlignFloor P (blen f - 1))
      by (apply floor_greatest; [apply P_pos|exact Ha|lia]).
    destruct (N.eq_dec (pageAlignFloor P (blen f - 1)) F) as [E|Hne]; [exact E|].
    pose proof (aligned_gap P P_pos F _ Ha Hal). lia.
  Qed.

  Corollary C05_scan_finds_last_single_page header rounds d json :
    let g := build P header rounds ++ d in
    let f := build P header (rounds ++ [(d, json)]) in
    let F := footer_pos P g in
    0 < blen g ->
    footer_len json <= P -> footer_len json < 2 ^ 32 -> F < 2 ^ 64 ->
    no_fake_footer P f F F ->
    read_footer P f = Found F json.
  Proof using HP.
    intros g f F Hg HLP HL HF Hnf.
    apply C05_scan_finds_last; trivial. fold g f F.
    destruct (last_footer g json F f eq_refl (build_snoc _ _ _)) as (Ha & _ & Hlen & _).
    destruct (footer_len_eq json).
    rewrite (single_page_last f F (footer_len json)); trivial; lia.
  Qed.

  (* whatever is appended after a complete file f1 — a torn footer, partial
     segment data, a subset of the next round's pages, garbage — as long as the
     repaired body accepts nothing at an aligned offset above F1 *)
  Theorem C05_repaired_ignores_tail header rounds d1 j1 tail :
    let g1 := build P header rounds ++ d1 in
    let F1 := footer_pos P g1 in
    let f1 := build P header (rounds ++ [(d1, j1)]) in
    0 < blen g1 ->
    footer_len j1 < 2 ^ 32 -> F1 < 2 ^ 64 ->
    no_accepted_footer P (f1 ++ tail) F1 ->
    read_footer_repaired P (f1 ++ tail) = Found F1 j1.
  Proof using HP.
    intros g1 F1 f1 Hg HL HF Hna.
    destruct (last_footer g1 j1 F1 f1 eq_refl (build_snoc _ _ _)) as (Ha & Hge & _ & Hsl & _).
    apply C05_repaired_general; trivial.
    - lia.
    - apply slice_app_l. exact Hsl.
  Qed.

  (* the same under the stronger, simpler hypothesis: no aligned offset above
     F1 in f1 ++ tail starts with magicBeg magicBeg *)
  Corollary C05_repaired_ignores_tail_no_fake header rounds d1 j1 tail :
    let g1 := build P header rounds ++ d1 in
    let F1 := footer_pos P g1 in
    let f1 := build P header (rounds ++ [(d1, j1)]) in
    0 < blen g1 ->
    footer_len j1 < 2 ^ 32 -> F1 < 2 ^ 64 ->
    no_fake_footer P (f1 ++ tail) F1 F1 ->
    read_footer_repaired P (f1 ++ tail) = Found F1 j1.
  Proof using HP.
    intros g1 F1 f1 Hg HL HF Hnf.
    apply C05_repaired_ignores_tail; trivial.
    apply no_fake_no_accepted. exact Hnf.
  Qed.

  (* a COMPLETE file: the repaired scan returns its last footer, with no
     condition on how many bytes the last page holds (multi-page footers
     included) *)
  Theorem C05_repaired_finds_last header rounds d json :
    let g := build P header rounds ++ d in
    let f := build P header (rounds ++ [(d, json)]) in
    let F := footer_pos P g in
    0 < blen g ->
    footer_len json < 2 ^ 32 -> F < 2 ^ 64 ->
    no_fake_footer P f F F ->
    read_footer_repaired P f = Found F json.
  Proof using HP.
    intros g f F Hg HL HF Hnf.
    pose proof (C05_repaired_ignores_tail_no_fake header rounds d json []) as H.
    cbv zeta in H. rewrite app_nil_r in H. apply H; trivial.
  Qed.

  Lemma skip_torn f t lo F2 j2 q :
    no_fake_footer P f lo F2 ->
    slice f F2 (footer_len j2) = Some (footer_bytes F2 j2) ->
    footer_len j2 < 2 ^ 32 ->
    t < F2 + footer_len j2 ->
    aligned P q -> lo < q ->
    scan_step_repaired (take t f) q = Continue.
  Proof.
    intros Hnf Hsl HL Ht Ha Hlt.
    destruct (N.eq_dec q F2) as [->|Hne];
      [destruct (N.le_gt_cases (F2 + footerBegLen) t) as [Hfit|Hshort]|].
    - apply (step_torn f t F2 j2); assumption.
    - apply step_repaired_no_magic, magic_at_short.
      pose proof (blen_take_le t f). lia.
    - apply step_repaired_no_magic, (no_fake_take P f t lo F2 Hnf); assumption.
  Qed.

  (* every cut at or after the end of f1 and before the end of f — inside d2,
     inside the alignment gap, or inside the last footer — gives (F1, j1) *)
  Theorem C05_repaired_any_cut header rounds d1 j1 d2 j2 t :
    let g1 := build P header rounds ++ d1 in
    let F1 := footer_pos P g1 in
    let f1 := build P header (rounds ++ [(d1, j1)]) in
    let g2 := f1 ++ d2 in
    let F2 := footer_pos P g2 in
    let f := build P header ((rounds ++ [(d1, j1)]) ++ [(d2, j2)]) in
    0 < blen g1 ->
    footer_len j1 < 2 ^ 32 -> F1 < 2 ^ 64 -> footer_len j2 < 2 ^ 32 ->
    no_fake_footer P f F1 F2 ->
    blen f1 <= t -> t < F2 + footer_len j2 ->
    read_footer_repaired P (take t f) = Found F1 j1.
  Proof using HP.
    intros g1 F1 f1 g2 F2 f Hg HL1 HF1 HL2 Hnf Ht1 Ht2.
    destruct (last_footer g1 j1 F1 f1 eq_refl (build_snoc _ _ _))
      as (Ha1 & Hge1 & Hlen1 & Hsl1 & _).
    destruct (last_footer g2 j2 F2 f eq_refl (build_snoc _ _ _))
      as (_ & _ & _ & Hsl2 & c & ->).
    apply C05_repaired_general; trivial.
    - lia.
    - unfold g2. rewrite <- app_assoc. apply slice_take_app; [exact Hsl1|lia].
    - intros q Haq Hlt. apply (skip_torn _ t F1 F2 j2 q); trivial.
  Qed.

  Theorem C05_scan_torn_repaired header rounds d1 j1 d2 j2 t :
    let g1 := build P header rounds ++ d1 in
    let F1 := footer_pos P g1 in
    let f1 := build P header (rounds ++ [(d1, j1)]) in
    let g2 := f1 ++ d2 in
    let F2 := footer_pos P g2 in
    let f := build P header ((rounds ++ [(d1, j1)]) ++ [(d2, j2)]) in
    0 < blen g1 ->
    footer_len j1 < 2 ^ 32 -> F1 < 2 ^ 64 -> footer_len j2 < 2 ^ 32 ->
    no_fake_footer P f F1 F2 ->
    F2 <= t -> t < F2 + footer_len j2 ->            (* cut anywhere inside the last footer *)
    read_footer_repaired P (take t f) = Found F1 j1.
  Proof using HP.
    intros g1 F1 f1 g2 F2 f Hg HL1 HF1 HL2 Hnf Ht1 Ht2.
    pose proof (footer_pos_ge g2) as Hge.
    change (blen (f1 ++ d2) <= F2) in Hge. rewrite blen_app in Hge.
    apply C05_repaired_any_cut; trivial. change (blen f1 <= t). lia.
  Qed.

  (* no earlier footer: the repaired scan reports ErrNoValidFooter *)
  Theorem C05_scan_torn_repaired_first header d2 j2 t :
    let g2 := header ++ d2 in
    let F2 := footer_pos P g2 in
    let f := build P header [(d2, j2)] in
    footer_len j2 < 2 ^ 32 ->
    no_fake_footer P f 0 F2 ->
    F2 <= t -> t < F2 + footer_len j2 ->
    read_footer_repaired P (take t f) = NoValidFooter.
  Proof using HP.
    intros g2 F2 f HL2 Hnf Ht1 Ht2.
    destruct (last_footer g2 j2 F2 f eq_refl eq_refl) as (_ & _ & _ & Hsl2 & _).
    apply repaired_none. intros q Ha Hlt.
    apply (skip_torn f t 0 F2 j2 q); trivial.
  Qed.

  (* the crash happened while d2 was being written, before any byte of the
     next footer: no assumption on j2 at all *)
  Theorem C05_repaired_cut_before_footer header rounds d1 j1 d2 j2 t :
    let g1 := build P header rounds ++ d1 in
    let F1 := footer_pos P g1 in
    let f1 := build P header (rounds ++ [(d1, j1)]) in
    let g2 := f1 ++ d2 in
    let F2 := footer_pos P g2 in
    let f := build P header ((rounds ++ [(d1, j1)]) ++ [(d2, j2)]) in
    0 < blen g1 ->
    footer_len j1 < 2 ^ 32 -> F1 < 2 ^ 64 ->
    no_fake_footer P f F1 F2 ->
    blen f1 <= t -> t <= F2 ->
    read_footer_repaired P (take t f) = Found F1 j1.
  Proof using HP.
    intros g1 F1 f1 g2 F2 f Hg HL1 HF1 Hnf Ht1 Ht2.
    destruct (last_footer g1 j1 F1 f1 eq_refl (build_snoc _ _ _))
      as (Ha1 & Hge1 & Hlen1 & Hsl1 & _).
    destruct (last_footer g2 j2 F2 f eq_refl (build_snoc _ _ _)) as (_ & _ & _ & _ & c & Ec).
    apply C05_repaired_general; trivial.
    - lia.
    - rewrite Ec. unfold g2. rewrite <- app_assoc. apply slice_take_app; [exact Hsl1|lia].
    - intros q Haq Hlt. apply step_repaired_no_magic.
      destruct (N.eq_dec q F2) as [->|Hne].
      + apply magic_at_short. pose proof (blen_take_le t f). unfold footerBegLen. lia.
      + apply (no_fake_take P f t F1 F2 Hnf); assumption.
  Qed.

  (* C05 refuted, in general: the code as it stands turns EVERY cut strictly
     inside the last footer into an error *)
  Theorem C05_scan_torn_always_error header rounds d2 j2 t :
    let g2 := build P header rounds ++ d2 in
    let F2 := footer_pos P g2 in
    let f := build P header (rounds ++ [(d2, j2)]) in
    0 < blen g2 ->
    footer_len j2 < 2 ^ 32 ->
    no_fake_footer P f F2 F2 ->
    F2 < t -> t < F2 + footer_len j2 ->
    read_footer P (take t f) = ScanError.
  Proof using HP.
    intros g2 F2 f Hg HL2 Hnf Ht1 Ht2.
    destruct (last_footer g2 j2 F2 f eq_refl (build_snoc _ _ _)) as (HaF2 & HF2 & Hlen & Hsl2 & _).
    assert (Hbt : blen (take t f) = t) by (apply blen_take; lia).
    unfold read_footer, scan_footer. rewrite Hbt.
    pose proof (floor_le P P_pos (t - 1)) as Hfl.
    pose proof (floor_aligned P P_pos (t - 1)) as Hal.
    assert (Hp0 : F2 <= pageAlignFloor P (t - 1))
      by (apply floor_greatest; [apply P_pos|exact HaF2|lia]).
    set (p0 := pageAlignFloor P (t - 1)) in *.
    destruct (N.le_gt_cases (p0 + footerBegLen) t) as [Hfit|Hshort].
    - (* the last page of the torn file has footerBegLen bytes: the scan walks
         down to F2, where the second ReadAt comes back short *)
      apply (scan_with_reach scan_step (take t f) F2 ScanError _ HaF2); [lia| |].
      + right. split; [lia|]. apply (step_torn f t F2 j2); trivial. lia.
      + intros q Ha Hlt Hq. fold p0 in Hq.
        apply step_no_magic; [apply (no_fake_take P f t F2 F2 Hnf); trivial; lia|].
        rewrite Hbt. lia.
    - (* fewer than footerBegLen bytes in the last page: the very first ReadAt
         returns io.EOF *)
      apply (scan_with_reach scan_step (take t f) p0 ScanError _ Hal Hfl).
      + right. split; [lia|]. apply step_short. rewrite Hbt. exact Hshort.
      + intros q _ Hlt Hq. fold p0 in Hq. lia.
  Qed.
End Scan.

Print Assumptions scan_fuel_suffices.
Print Assumptions C05_scan_finds_last.
Print Assumptions C05_scan_finds_last_single_page.
Print Assumptions C05_scan_torn_repaired.
Print Assumptions C05_scan_torn_repaired_first.
Print Assumptions C05_scan_torn_always_error.
Print Assumptions C05_repaired_general.
Print Assumptions C05_repaired_ignores_tail.
Print Assumptions C05_repaired_ignores_tail_no_fake.
Print Assumptions C05_repaired_finds_last.
Print Assumptions C05_repaired_any_cut.
Print Assumptions C05_repaired_cut_before_footer.

(* Concrete witnesses, page size 64 (P is a parameter exactly so that these
   compute).  Header page of '\n', two rounds. *)

Definition w_hdr : bytes := repeat 10 64.
Definition w_d1 : bytes := [1; 2; 3].
Definition w_j1 : bytes := [123; 49; 125].            (* {1} *)
Definition w_d2 : bytes := [4; 5].
Definition w_j2 : bytes := [123; 50; 50; 125].        (* {22} *)
Definition w_f1 : bytes := build 64 w_hdr [(w_d1, w_j1)].
Definition w_f : bytes := build 64 w_hdr [(w_d1, w_j1); (w_d2, w_j2)].

Lemma w_facts :
  footer_pos 64 (build 64 w_hdr [] ++ w_d1) = 128 /\
  footer_pos 64 (w_f1 ++ w_d2) = 192 /\
  blen w_f1 = 175 /\ blen w_f = 240 /\
  footer_len w_j1 = 47 /\ footer_len w_j2 = 48.
Proof. repeat split; vm_compute; reflexivity. Qed.

Lemma w_no_fake : no_fake_footer 64 w_f 128 192.
Proof.
  intros q Ha Hlt Hne. apply (aligned_iff 64) in Ha as [k ->]; [|reflexivity].
  apply magic_at_short. replace (blen w_f) with 240 by (symmetry; apply w_facts).
  unfold footerBegLen. lia.
Qed.

(* the complete file is read correctly ... *)
Example w_complete_ok : read_footer 64 w_f = Found 192 w_j2.
Proof. vm_compute. reflexivity. Qed.

(* C05 refuted: there is a file and a cut strictly inside its last footer that
   satisfy every hypothesis of C05_scan_torn_repaired, for which the code as it
   stands returns an error although the previous footer (F1, j1) is intact —
   and is what the repaired scan returns. *)
Theorem C05_scan_torn_refuted :
  exists (P : N) header rounds d1 j1 d2 j2 t,
    let g1 := build P header rounds ++ d1 in
    let F1 := footer_pos P g1 in
    let f1 := build P header (rounds ++ [(d1, j1)]) in
    let g2 := f1 ++ d2 in
    let F2 := footer_pos P g2 in
    let f := build P header ((rounds ++ [(d1, j1)]) ++ [(d2, j2)]) in
    footerBegLen <= P /\ 0 < blen g1 /\
    footer_len j1 < 2 ^ 32 /\ F1 < 2 ^ 64 /\ footer_len j2 < 2 ^ 32 /\
    no_fake_footer P f F1 F2 /\
    F2 <= t /\ t < F2 + footer_len j2 /\
    read_footer P f1 = Found F1 j1 /\
    read_footer P (take t f) = ScanError /\
    read_footer_repaired P (take t f) = Found F1 j1.
Proof.
  exists 64, w_hdr, [], w_d1, w_j1, w_d2, w_j2, 222.
  cbv zeta. cbn [app].
  change (build 64 w_hdr [(w_d1, w_j1)]) with w_f1.
  change (build 64 w_hdr [(w_d1, w_j1); (w_d2, w_j2)]) with w_f.
  destruct w_facts as (E1 & E2 & E3 & E4 & E5 & E6).
  rewrite E1, E2, E5, E6.
  repeat split;
    first [ exact w_no_fake | vm_compute; reflexivity | vm_compute; discriminate ].
Qed.
Print Assumptions C05_scan_torn_refuted.

(* every cut inside the last footer of this file, byte by byte *)
Example w_torn_every_cut :
  forallb (fun t => match read_footer 64 (take t w_f), read_footer_repaired 64 (take t w_f) with
                    | ScanError, Found 128 j => beqb j w_j1
                    | _, _ => false
                    end)
          (map (fun i => 193 + N.of_nat i) (seq 0 47)) = true.
Proof. vm_compute. reflexivity. Qed.

(* short first read (io.EOF on the magic) and short second read *)
Example w_torn_short_head : read_footer 64 (take 197 w_f) = ScanError.
Proof. vm_compute. reflexivity. Qed.
Example w_torn_short_tail : read_footer 64 (take 239 w_f) = ScanError.
Proof. vm_compute. reflexivity. Qed.

(* An UNTORN file the code cannot read: a footer of 64 + 5 bytes.  Its last
   page holds 5 < footerBegLen bytes, so the first ReadAt returns io.EOF.  All
   hypotheses of C05_scan_finds_last hold except the last-page one. *)
Definition w_j3 : bytes := repeat 65 25.
Definition w_f3 : bytes := build 64 w_hdr [(w_d1, w_j1); (w_d2, w_j3)].

Theorem C05_scan_complete_refuted :
  footer_len w_j3 = 69 /\ blen w_f3 = 192 + 69 /\
  slice w_f3 192 69 = Some (footer_bytes 192 w_j3) /\
  read_footer 64 w_f3 = ScanError /\
  read_footer_repaired 64 w_f3 = Found 192 w_j3.
Proof. repeat split; vm_compute; reflexivity. Qed.
Print Assumptions C05_scan_complete_refuted.

(* the same for the first two writes of the NEXT round: a 16-byte kvs region
   (one entry) written after a complete file, footer not yet written *)
Example C05_scan_unfinished_round_refuted :
  let f := apply_delta w_f (persist_segment 64 (blen w_f) [([7], OSet [8])]) in
  blen f = 322 /\
  read_footer 64 f = ScanError /\ read_footer_repaired 64 f = Found 192 w_j2.
Proof. repeat split; vm_compute; reflexivity. Qed.

(* hostile length fields: run-time panics *)
Definition hostile (len : N) (tail : bytes) : bytes :=
  w_hdr ++ magicBeg ++ magicBeg ++ le_u32 4 ++ le_u32 len ++ tail.

Example panic_makeslice_negative : read_footer 64 (hostile 10 []) = ScanPanic.
Proof. vm_compute. reflexivity. Qed.
Example panic_slice_negative_low : read_footer 64 (hostile 25 [0; 0; 0; 0; 0]) = ScanPanic.
Proof. vm_compute. reflexivity. Qed.
Example panic_len_eq_beg : read_footer 64 (hostile 20 []) = ScanPanic.
Proof. vm_compute. reflexivity. Qed.
Example panic_content_negative :
  read_footer 64 (hostile 32 (magicEnd ++ magicEnd)) = ScanPanic.
Proof. vm_compute. reflexivity. Qed.
(* and a wrong version aborts instead of scanning on *)
Example error_version :
  read_footer 64 (w_f1 ++ zeros 17 ++ magicBeg ++ magicBeg ++ le_u32 3 ++ le_u32 44 ++ zeros 24)
  = ScanError.
Proof. vm_compute. reflexivity. Qed.

Lemma StorePageSize_ok : footerBegLen <= StorePageSize.
Proof. vm_compute. discriminate. Qed.

Definition C05_scan_finds_last_4096 := C05_scan_finds_last StorePageSize StorePageSize_ok.
Definition C05_scan_finds_last_single_page_4096 :=
  C05_scan_finds_last_single_page StorePageSize StorePageSize_ok.
Definition C05_scan_torn_repaired_4096 := C05_scan_torn_repaired StorePageSize StorePageSize_ok.
Definition C05_scan_torn_repaired_first_4096 :=
  C05_scan_torn_repaired_first StorePageSize StorePageSize_ok.
Definition C05_scan_torn_always_error_4096 :=
  C05_scan_torn_always_error StorePageSize StorePageSize_ok.
Definition C19_segment_roundtrip_4096 f pos s :=
  C19_segment_roundtrip StorePageSize pos s f StorePageSize_pos.
Definition C05_repaired_finds_last_4096 := C05_repaired_finds_last StorePageSize StorePageSize_ok.
Definition C05_repaired_ignores_tail_4096 := C05_repaired_ignores_tail StorePageSize StorePageSize_ok.
Definition C05_repaired_any_cut_4096 := C05_repaired_any_cut StorePageSize StorePageSize_ok.
Definition C05_repaired_cut_before_footer_4096 :=
  C05_repaired_cut_before_footer StorePageSize StorePageSize_ok.
