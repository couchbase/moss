(* Sync2Stall.v - the converse clause of the zero-gauge property for data at rest, in the
   fine-grained wait/notify model Sync2.v: the dirty gauges do not stay non-zero for ever.
     no_persist_stall    a merged stack that waits for a free persister gets closer to its
                         hand-over by some background step, at every program point (this is
                         persist_stall_free of Sync2Progress.v, restated here beside the others);
     gauges_step         in every open state with a lower level, without a pending caller
                         and with something dirty (top / mid / base), a background step
                         (no failing merge, no failing update) is enabled that strictly
                         decreases the measure mu_g (Sync2StallA.v);
     gauges_reach_zero   hence a background schedule no longer than mu_g <= 72 after which
                         top, mid and base are all empty (the last round is published).
   The scheduler of the proof: while stackDirtyBase is set the persister runs its round;
   otherwise the merger is brought to its ingest (top non-empty) or to its hand-over (a
   merged stack waits), woken by the persister's ping where it sleeps and released by the
   persister's close of the outgoing channel where it waits on the dirty limits. *)
From Coq Require Import List Arith Bool Lia.
Import ListNotations.
From Moss Require Import Sync2 Sync2Facts Sync2ProgressA Sync2Progress Sync2StallA.

Section Stall.
Variable c : config.
Hypothesis cap_pos : 1 <= c_cap c.
Hypothesis qcap_pos : 1 <= c_qcap c.

Lemma not_dirty_zero s : dirty s = false -> gauges_zero s.
Proof.
  unfold dirty, gauges_zero. intros D. b2p. repeat split; auto. lia.
Qed.

(* ONE STEP, every program point: something dirty, nobody calling => a background step other
   than a failing merge / a failing update is enabled and decreases mu_g *)
Theorem gauges_step s :
  inv c s -> invK c s -> c_ll c = true -> z_closed s = false -> ~ pending s ->
  dirty s = true ->
  exists l s', bg l = true /\ step c s l = Some s' /\ mu_g s' < mu_g s.
Proof using cap_pos qcap_pos.
  intros I K Ll Cl NP D. apply not_pending_calls in NP.
  destruct (z_base s) eqn:B; [apply g_base; assumption|].
  destruct (0 <? z_top s) eqn:T; [apply g_top; assumption|].
  apply g_mid; auto.
  - apply Nat.ltb_ge in T. lia.
  - unfold dirty in D. rewrite T, B in D. destruct (z_mid s); [reflexivity|discriminate].
Qed.

(* THE SCHEDULE: from every open state satisfying the proved invariants, with a lower level
   and without a pending caller, a schedule of background steps (no failing merge, every
   lower-level update succeeds), no longer than mu_g s, after which the gauges are zero *)
Theorem gauges_reach_zero_inv : forall n s,
  inv c s -> invK c s -> c_ll c = true -> z_closed s = false -> ~ pending s -> mu_g s <= n ->
  exists ls s', Forall (fun l => bg l = true) ls /\ length ls <= mu_g s /\
                run c s ls = Some s' /\ gauges_zero s' /\
                ~ pending s' /\ z_closed s' = false /\ inv c s' /\ invK c s'.
Proof using cap_pos qcap_pos.
  intros n s I K Ll Cl NP _.
  apply (drain c (fun s => ~ pending s /\ z_closed s = false /\ inv c s /\ invK c s) gauges_zero mu_g);
    [|auto].
  intros s0 (NP0 & Cl0 & I0 & K0). destruct (dirty s0) eqn:D; [right|left; apply not_dirty_zero, D].
  destruct (gauges_step s0 I0 K0 Ll Cl0 NP0 D) as (l & s1 & B & St & Dm). exists l, s1.
  split; [exact B|]. split; [exact St|]. split; [exact Dm|].
  split; [eapply bg_keeps_not_pending; eauto|]. split; [eapply bg_keeps_open; eauto|].
  split; [eapply inv_step; eauto|]. eapply invK_step; eauto using bg_not_mergefail.
Qed.

(* ... stated for the states the model reaches without a failing merge (after a failing
   merge the un-merged stack is not handed over: persist_stall_after_merge_failure) *)
Theorem gauges_reach_zero s :
  reachable_nf c s -> c_ll c = true -> z_closed s = false -> ~ pending s ->
  exists ls s', Forall (fun l => bg l = true) ls /\
                length ls <= mu_g s /\ mu_g s <= 72 /\
                run c s ls = Some s' /\ gauges_zero s' /\
                ~ pending s' /\ z_closed s' = false /\ reachable_nf c s'.
Proof using cap_pos qcap_pos.
  intros R Ll Cl NP.
  pose proof R as R0. apply reachable_nf_inv in R0; auto. destruct R0 as [I K].
  destruct (gauges_reach_zero_inv (mu_g s) s I K Ll Cl NP (le_n _))
    as (ls & s' & F & L & Rn & Z & NP' & Cl' & _ & _).
  exists ls, s'. split; [exact F|]. split; [exact L|]. split; [apply mu_g_bound|].
  split; [exact Rn|]. split; [exact Z|]. split; [exact NP'|]. split; [exact Cl'|].
  destruct R as (l0 & NF & R). exists (l0 ++ ls). split.
  - intros X. apply in_app_or in X. destruct X as [X|X]; [exact (NF X)|].
    rewrite Forall_forall in F. apply F in X. discriminate X.
  - unfold run in *. rewrite run_app, R. exact Rn.
Qed.

Theorem no_persist_stall s :
  inv c s -> invK c s -> c_ll c = true -> z_closed s = false ->
  z_mid s = true -> z_base s = false -> ~ pending s ->
  exists l s', bg l = true /\ l <> LMMergeFail /\ step c s l = Some s' /\
               mu_p s' < mu_p s /\ ~ pending s'.
Proof using cap_pos qcap_pos. exact (persist_stall_free c cap_pos qcap_pos s). Qed.
End Stall.

(* the hypotheses are met by non-trivial reachable states *)

(* no dirty limits: a batch in the top, an un-handed-over merged stack (its hand-over was
   skipped: the persister is busy), a stack with the persister; merger at its loop top *)
Definition sched_dirty_at_rest : list step_label :=
  [LMReply; LMCheck; LPTop;
   LWCall; LWCloseInc; LMSelInc; LMDrain; LMIngest; LMMergeOk; LMHandover; LMReply; LMCheck;
   LWCall; LWCloseInc; LMSelInc; LMDrain; LMIngest; LMMergeOk; LMHandover;
   LWCall].

Ltac not_in := intros X; cbn in X;
  repeat (destruct X as [X|X]; [discriminate X|]); exact X.

Example gauges_hyps_satisfiable :
  exists s, reachable_nf cfg_plain s /\ c_ll cfg_plain = true /\ z_closed s = false /\
            ~ pending s /\ z_top s = 1 /\ z_mid s = true /\ z_base s = true /\
            z_mp s = MReply /\ z_pp s = PWoken /\ dirty s = true.
Proof.
  eexists. split; [exists sched_dirty_at_rest; split; [not_in|vm_compute; reflexivity]|].
  repeat split; try reflexivity. unfold pending; cbn; lia.
Qed.

(* dirty limits: the merger waits on the outgoing channel, the persister has been woken
   and holds the stack, a new batch sits in the top *)
Definition sched_dirty_limit_wait : list step_label :=
  [LMReply; LMCheck; LPTop;
   LWCall; LWCloseInc; LMSelInc; LMDrain; LMIngest; LMMergeOk; LMHandover; LWCall].

Example gauges_hyps_satisfiable_limits :
  exists s, reachable_nf cfg_limits s /\ c_ll cfg_limits = true /\ z_closed s = false /\
            ~ pending s /\ z_top s = 1 /\ z_base s = true /\ z_mp s = MWaitOut 0 /\
            z_oready s = false /\ dirty s = true.
Proof.
  eexists. split; [exists sched_dirty_limit_wait; split; [not_in|vm_compute; reflexivity]|].
  repeat split; try reflexivity. unfold pending; cbn; lia.
Qed.

(* a test of the statement on the second state: the schedule the proof's scheduler picks
   (20 steps <= mu_g = 58), computed *)
Example gauges_drain_limits_computed :
  exists s s', run cfg_limits (init cfg_limits) sched_dirty_limit_wait = Some s /\
    run cfg_limits s
      [LPTop; LPChk; LPUpdOk; LPPublish; LPCloseOut; LMOutWake; LMReply; LMCheck; LMDrain;
       LMIngest; LMMergeOk; LMHandover; LPTop; LPChk; LPUpdOk; LPPublish; LPCloseOut;
       LMOutWake; LMReply; LMCheck] = Some s' /\
    gauges_zero s' /\ mu_g s = 58.
Proof.
  eexists. eexists. split; [vm_compute; reflexivity|]. split; [vm_compute; reflexivity|].
  vm_compute. repeat split; reflexivity.
Qed.

Print Assumptions gauges_step.
Print Assumptions gauges_reach_zero_inv.
Print Assumptions gauges_reach_zero.
Print Assumptions no_persist_stall.
Print Assumptions gauges_hyps_satisfiable.
