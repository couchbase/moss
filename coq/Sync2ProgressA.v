(* Sync2ProgressA.v - progress while the collection is open (Sync2.v): the measure mu_o and,
   for every position of the merger, the background step that decreases it.
   Sync2Progress.v assembles the theorems. *)
From Coq Require Import List Arith Bool Lia.
Import ListNotations.
From Moss Require Import Sync2 Sync2Facts.

Section Open.
Variable c : config.

(* persister: steps until it has closed the outgoing channel the merger waits on *)
Definition dP (s : state) : nat :=
  if z_oready s then 0 else
  match z_pp s with
  | PCloseOut (Some g) =>
      match z_mp s with MWaitOut g' => if g =? g' then 1 else 7 | _ => 7 end
  | PTop | PWoken => 6 | PChk => 5 | PUpdate => 4 | PPublish => 3
  | _ => 7
  end.

(* merger: steps until it has ingested / answered its pongs / drained the queue.  Each counts
   the positions left on the merger's loop MCheck, MSelect, MDrain, MIngest, MMerge,
   MHandover, MWaitOut, MReply before its event; the wait at MWaitOut is worth the persister's
   dP <= 7 steps and its own, whence the jump of 8 to MHandover and the bound 15 of a full
   turn (dist_bound).  The 12 in muD is dR just after the drain (at MIngest). *)
Definition dI (s : state) : nat :=
  match z_mp s with
  | MIngest => 1 | MDrain => 2 | MSelect => 3 | MCheck => 4 | MReply => 5
  | MWaitOut _ => 6 + dP s | MHandover => 14 | MMerge => 15 | _ => 0 end.
Definition dR (s : state) : nat :=
  match z_mp s with
  | MReply => 1 | MWaitOut _ => 2 + dP s | MHandover => 10 | MMerge => 11 | MIngest => 12
  | MDrain => 13 | MSelect => 14 | MCheck => 15 | _ => 0 end.
Definition dDr (s : state) : nat :=
  match z_mp s with
  | MDrain => 1 | MSelect => 2 | MCheck => 3 | MReply => 4 | MWaitOut _ => 5 + dP s
  | MHandover => 13 | MMerge => 14 | MIngest => 15 | _ => 0 end.

(* the farthest of the merger events some caller in flight is waiting for:
   writers held back by a full top need the ingest, senders held back by a full queue
   the drain, queued synchronous pings the drain and then the reply, collected ones
   the reply *)
Definition muD (s : state) : nat :=
  Nat.max
    (Nat.max (if 0 <? z_wwait s + (if z_top s <? c_cap c then 0 else z_wwoken s) then dI s else 0)
             (if 0 <? (if room c s then 0 else z_nsyn s + z_nasy s) then dDr s else 0))
    (Nat.max (if 0 <? nsync (z_q s) then dDr s + 12 else 0)
             (if 0 <? z_pongs s then dR s else 0)).

(* weighted measure: callers not yet accepted weigh more than a whole merger cycle *)
Definition mu_o (s : state) : nat :=
  30 * (z_wwait s + z_wwoken s + z_nsyn s + z_nasy s) + z_wclcur s + z_wclold s + muD s.

(* some call has been made and has not returned *)
Definition pending (s : state) : Prop :=
  0 < z_wwait s + z_wwoken s + z_wclcur s + z_wclold s + z_nsyn s + z_nasy s
      + nsync (z_q s) + z_pongs s.

Definition calls (s : state) : nat :=
  z_wwait s + z_wwoken s + z_wclcur s + z_wclold s + z_nsyn s + z_nasy s
  + nsync (z_q s) + z_pongs s.

Lemma not_pending_calls s : ~ pending s <-> calls s = 0.
Proof. unfold pending. fold (calls s). lia. Qed.

Lemma nsync_app q b : nsync (q ++ [b]) = nsync q + (if b then 1 else 0).
Proof. induction q as [|x r IH]; simpl; [lia|]. rewrite IH. lia. Qed.

(* no call is made by a background step *)
Lemma bg_calls_le s l s' : step c s l = Some s' -> bg l = true -> calls s' <= calls s.
Proof.
  intros H B. destruct l; try discriminate B; step_cases H;
  unfold writer_enter, broadcast_base, broadcast_top; goal_cases; unfold calls; zs;
  rewrite ?nsync_app; cbn [nsync]; b2p; try lia.
  - apply orphan_nsync in E0 as [E0 _]. lia.
  - rewrite E0. cbn [nsync]. lia.
  - rewrite E0. cbn [nsync]. lia.
Qed.

Lemma bb_cp s : z_cp (broadcast_base s) = z_cp s.
Proof. unfold broadcast_base; destruct (z_pp s); reflexivity. Qed.

Definition needI (s : state) : bool :=
  0 <? z_wwait s + (if z_top s <? c_cap c then 0 else z_wwoken s).
Definition needS (s : state) : bool := 0 <? (if room c s then 0 else z_nsyn s + z_nasy s).
Definition needQ (s : state) : bool := 0 <? nsync (z_q s).
Definition needR (s : state) : bool := 0 <? z_pongs s.
Definition needs (s : state) : bool := needI s || needS s || needQ s || needR s.

Lemma muD_eq s :
  muD s = Nat.max (Nat.max (if needI s then dI s else 0) (if needS s then dDr s else 0))
                  (Nat.max (if needQ s then dDr s + 12 else 0) (if needR s then dR s else 0)).
Proof. reflexivity. Qed.

Lemma dP_bound s : dP s <= 7.
Proof.
  unfold dP. destruct (z_oready s); [lia|]. destruct (z_pp s) as [| | | | | |[g|]| |]; try lia.
  destruct (z_mp s); try lia. destruct (_ =? _); lia.
Qed.

Lemma dist_bound s : dI s <= 15 /\ dDr s <= 15 /\ dR s <= 15.
Proof. pose proof (dP_bound s). unfold dI, dDr, dR. destruct (z_mp s); lia. Qed.

Lemma dist_pos s : mexiting (z_mp s) = false -> 0 < dI s /\ 0 < dDr s /\ 0 < dR s.
Proof. unfold dI, dDr, dR. destruct (z_mp s); cbn; intros; try discriminate; lia. Qed.

Lemma muD_ge s :
  (needI s = true -> dI s <= muD s) /\ (needS s = true -> dDr s <= muD s) /\
  (needQ s = true -> dDr s + 12 <= muD s) /\ (needR s = true -> dR s <= muD s).
Proof. rewrite muD_eq. repeat split; intros ->; lia. Qed.

Lemma muD_lt s m :
  0 < m -> (needI s = true -> dI s < m) -> (needS s = true -> dDr s < m) ->
  (needQ s = true -> dDr s + 12 < m) -> (needR s = true -> dR s < m) -> muD s < m.
Proof.
  rewrite muD_eq. intros P HI HS HQ HR.
  destruct (needI s), (needS s), (needQ s), (needR s);
  repeat match goal with H : true = true -> _ |- _ => specialize (H eq_refl) end; lia.
Qed.

Lemma muD_bound s : muD s <= 27.
Proof. destruct (dist_bound s) as (BI & BD & BR). apply Nat.lt_succ_r, muD_lt; lia. Qed.

Lemma muD_pos s : needs s = true -> mexiting (z_mp s) = false -> 0 < muD s.
Proof.
  intros N X. destruct (dist_pos s X) as (PI & PD & PR). destruct (muD_ge s) as (GI & GS & GQ & GR).
  unfold needs in N.
  destruct (needI s); [specialize (GI eq_refl); lia|].
  destruct (needS s); [specialize (GS eq_refl); lia|].
  destruct (needQ s); [specialize (GQ eq_refl); lia|]. specialize (GR N). lia.
Qed.

(* a collected ping may have been a queued one *)
Lemma wait_dec s s' :
  z_wwait s' + z_wwoken s' + z_nsyn s' + z_nasy s' = z_wwait s + z_wwoken s + z_nsyn s + z_nasy s ->
  z_wclcur s' + z_wclold s' = z_wclcur s + z_wclold s ->
  needs s = true -> mexiting (z_mp s) = false ->
  (needI s' = true -> needI s = true /\ dI s' < dI s) ->
  (needS s' = true -> needS s = true /\ dDr s' < dDr s) ->
  (needQ s' = true -> needQ s = true /\ dDr s' < dDr s) ->
  (needR s' = true -> needR s = true /\ dR s' < dR s \/ needQ s = true /\ dR s' < dDr s + 12) ->
  mu_o s' < mu_o s.
Proof.
  intros C W N X HI HS HQ HR. destruct (muD_ge s) as (GI & GS & GQ & GR).
  assert (D : muD s' < muD s).
  { apply muD_lt; [exact (muD_pos s N X)| | | |]; intros G.
    - destruct (HI G) as [G0 L]. specialize (GI G0). lia.
    - destruct (HS G) as [G0 L]. specialize (GS G0). lia.
    - destruct (HQ G) as [G0 L]. specialize (GQ G0). lia.
    - destruct (HR G) as [[G0 L]|[G0 L]]; [specialize (GR G0)|specialize (GQ G0)]; lia. }
  unfold mu_o. lia.
Qed.

Lemma move_dec s s' :
  same_callers s s' -> needs s = true -> mexiting (z_mp s) = false ->
  dI s' < dI s -> dR s' < dR s -> dDr s' < dDr s -> mu_o s' < mu_o s.
Proof.
  intros (A1&A2&A3&A4&A5&A6&A7&A8) N X HI HR HD.
  assert (E : needI s' = needI s /\ needS s' = needS s /\ needQ s' = needQ s /\ needR s' = needR s).
  { unfold needI, needS, needQ, needR, room. rewrite A1, A2, A3, A4, A5, A6, A7. auto. }
  destruct E as (EI & ES & EQ & ER).
  apply wait_dec; try assumption; try lia; rewrite ?EI, ?ES, ?EQ, ?ER; auto.
Qed.

(* a step that accepts a caller: the weight 30 pays for whatever happens to muD *)
Lemma accept_dec s s' :
  S (z_wwait s' + z_wwoken s' + z_nsyn s' + z_nasy s') = z_wwait s + z_wwoken s + z_nsyn s + z_nasy s ->
  z_wclcur s' + z_wclold s' <= S (z_wclcur s + z_wclold s) -> mu_o s' < mu_o s.
Proof. intros C W. unfold mu_o. pose proof (muD_bound s'). lia. Qed.

(* where no caller has a step of its own, one of them waits for the merger *)
Lemma needs_of_pending s :
  pending s -> z_wclcur s = 0 -> z_wclold s = 0 ->
  (0 < z_wwoken s -> c_cap c <= z_top s) ->
  (0 < z_nsyn s + z_nasy s -> room c s = false) ->
  needs s = true.
Proof.
  unfold pending, needs, needI, needS, needQ, needR. intros P W1 W2 C3 C4.
  destruct (Nat.ltb_spec (z_top s) (c_cap c)), (room c s);
  repeat match goal with |- context[?a <? ?b] => destruct (Nat.ltb_spec a b) end;
  cbn [orb]; auto; lia.
Qed.

Lemma open_closeinc s : 0 < z_wclcur s -> progresses c mu_o s.
Proof.
  intros W. eapply progress_by; [apply step_LWCloseInc, W|reflexivity|].
  unfold mu_o, muD, dI, dDr, dR, dP, room; zs. lia.
Qed.

Lemma open_closeold s : 0 < z_wclold s -> progresses c mu_o s.
Proof.
  intros W. eapply progress_by; [apply step_LWCloseOld, W|reflexivity|].
  unfold mu_o, muD, dI, dDr, dR, dP, room; zs. lia.
Qed.

Lemma open_recheck s :
  inv c s -> z_closed s = false -> 0 < z_wwoken s -> z_top s < c_cap c -> progresses c mu_o s.
Proof.
  intros I Cl W T. eapply progress_by; [apply step_LWRecheck; [apply (inv_lk c s I)|exact W]|reflexivity|].
  rewrite writer_enter_accepted by assumption. zs.
  apply accept_dec; destruct (z_armed s); zs; lia.
Qed.

Lemma open_send_sync s : 0 < z_nsyn s -> room c s = true -> progresses c mu_o s.
Proof.
  intros N R. eapply progress_by; [apply step_LNSend_sync; assumption|reflexivity|].
  apply accept_dec; zs; lia.
Qed.

Lemma open_send_async s : 0 < z_nasy s -> room c s = true -> progresses c mu_o s.
Proof.
  intros N R. eapply progress_by; [apply step_LNSend_async; assumption|reflexivity|].
  apply accept_dec; zs; lia.
Qed.

(* the merger's steps, where no caller has a step of its own *)
Ltac waits E := unfold needI, needS, needQ, needR, room, dI, dDr, dR; zs; rewrite ?E; zs.
Ltac moves E := unfold same_callers, dI, dDr, dR; zs; rewrite ?E; zs; repeat split; auto; try lia.

Lemma open_MReply s : needs s = true -> z_mp s = MReply -> progresses c mu_o s.
Proof.
  intros N E. eapply progress_by; [apply step_LMReply, E|reflexivity|].
  apply wait_dec; zs; auto; waits E.
  - reflexivity.
  - intros G. split; [exact G|lia].
  - intros G. split; [exact G|lia].
  - intros G. split; [exact G|lia].
  - discriminate.
Qed.

(* a collected synchronous ping now waits for the reply, which is closer than the drain was *)
Lemma open_MSelPing s b r :
  needs s = true -> z_mp s = MSelect -> z_q s = b :: r -> progresses c mu_o s.
Proof.
  intros N E Eq. eapply progress_by; [eapply step_LMSelPing; eassumption|reflexivity|].
  apply wait_dec; zs; auto; waits E; rewrite ?Eq; cbn [length nsync].
  - reflexivity.
  - intros G. split; [exact G|lia].
  - destruct (length r <? c_qcap c) eqn:R; [discriminate|]. intros G.
    assert (R' : (S (length r) <? c_qcap c) = false) by (b2p; apply Nat.ltb_ge; lia).
    rewrite R'. split; [exact G|lia].
  - intros G. b2p. split; [apply Nat.ltb_lt|]; lia.
  - intros G. b2p. destruct b.
    + right. split; [apply Nat.ltb_lt|]; lia.
    + left. split; [apply Nat.ltb_lt|]; lia.
Qed.

(* a sleeping merger that nothing can wake: then nobody is waiting for it *)
Lemma open_MSelect_empty s :
  1 <= c_cap c -> 1 <= c_qcap c -> inv c s -> needs s = true -> z_wclcur s = 0 ->
  z_mp s = MSelect -> z_incc s = false -> z_q s = [] -> False.
Proof.
  intros cap_pos qcap_pos I N W E Ei Eq. destruct (asleep_armed c s I E Ei W) as [_ T].
  inv_clauses I. rewrite E in I9. specialize (I9 eq_refl).
  unfold needs, needI, needS, needQ, needR, room in N. rewrite Eq, T, I9 in N. cbn [length nsync] in N.
  assert (R : (0 <? c_qcap c) = true) by (apply Nat.ltb_lt; lia).
  assert (C : (0 <? c_cap c) = true) by (apply Nat.ltb_lt; lia).
  rewrite R, C, Nat.add_0_r, !orb_false_r in N. b2p. specialize (I5 N). lia.
Qed.

(* the drain empties the queue: senders get room, queued pings are collected *)
Lemma open_MDrain s :
  1 <= c_qcap c -> needs s = true -> z_mp s = MDrain -> progresses c mu_o s.
Proof.
  intros qcap_pos N E. eapply progress_by; [apply step_LMDrain, E|reflexivity|].
  apply wait_dec; zs; auto; waits E; cbn [length nsync].
  - reflexivity.
  - intros G. split; [exact G|lia].
  - assert (R : (0 <? c_qcap c) = true) by (apply Nat.ltb_lt; lia). rewrite R. discriminate.
  - discriminate.
  - intros G. b2p. destruct (Nat.eq_0_gt_0_cases (z_pongs s)).
    + right. split; [apply Nat.ltb_lt|]; lia.
    + left. split; [apply Nat.ltb_lt|]; lia.
Qed.

(* the ingest empties the top and wakes every writer: none is held back any more *)
Lemma open_MIngest s :
  1 <= c_cap c -> inv c s -> needs s = true -> z_mp s = MIngest -> progresses c mu_o s.
Proof.
  intros cap_pos I N E.
  eapply progress_by; [apply step_LMIngest; [exact E|exact (inv_lk c s I)]|reflexivity|].
  unfold broadcast_top. apply wait_dec; zs; auto; waits E.
  - lia.
  - reflexivity.
  - assert (C : (0 <? c_cap c) = true) by (apply Nat.ltb_lt; lia). rewrite C. discriminate.
  - intros G. split; [exact G|lia].
  - intros G. split; [exact G|lia].
  - intros G. left. split; [exact G|lia].
Qed.

(* the dirty-limit wait ends when the persister closes the outgoing channel: until then the
   persister's round is enabled step by step *)
Lemma open_MWaitOut s g :
  inv c s -> z_closed s = false -> needs s = true -> z_mp s = MWaitOut g ->
  progresses c mu_o s.
Proof.
  intros I Cl N E. pose proof (inv_lk c s I) as L.
  assert (closer : forall s', same_callers s s' -> z_mp s' = z_mp s -> dP s' < dP s ->
                              mu_o s' < mu_o s).
  { intros s' SC E' D. apply move_dec; auto; unfold dI, dR, dDr; rewrite ?E', E; auto; lia. }
  destruct (z_oready s) eqn:Er.
  { eapply progress_by; [eapply step_LMOutWake; eassumption|reflexivity|].
    apply move_dec; auto; moves E. }
  destruct (persister_parked c s I) as (NL & PW & PD).
  pose proof (waitout_owner c s g I Cl E Er) as HB.
  destruct (z_pp s) as [| | | | | |og| |] eqn:Ep.
  - destruct HB as [HB|[Ho B]]; [discriminate|].
    eapply progress_by; [apply step_LPTop_busy; auto|reflexivity|].
    apply closer; unfold same_callers, dP; zs; rewrite ?Er, ?Ep; repeat split; auto.
  - destruct HB as [HB|[Ho B]]; [discriminate|]. destruct (PW eq_refl). congruence.
  - destruct HB as [HB|[Ho B]]; [discriminate|].
    eapply progress_by; [apply step_LPTop_busy; auto|reflexivity|].
    apply closer; unfold same_callers, dP; zs; rewrite ?Er, ?Ep; repeat split; auto.
  - eapply progress_by; [apply step_LPChk, Ep|reflexivity|]. rewrite Cl.
    apply closer; unfold same_callers, dP; zs; rewrite ?Er, ?Ep; repeat split; auto.
  - eapply progress_by; [apply step_LPUpdOk, Ep|reflexivity|].
    apply closer; unfold same_callers, dP; zs; rewrite ?Er, ?Ep; repeat split; auto.
  - destruct HB as [HB|[Ho B]]; [discriminate|].
    eapply progress_by; [apply step_LPPublish; assumption|reflexivity|].
    apply closer; unfold same_callers, dP; zs; rewrite ?Er, ?Ep, ?Ho, ?E, ?Nat.eqb_refl; repeat split; auto.
  - eapply progress_by; [apply (step_LPCloseOut c s og Ep)|reflexivity|]. rewrite E.
    destruct og as [g0|]; [destruct (g0 =? g) eqn:Eg|];
    apply closer; unfold same_callers, dP; zs; rewrite ?Er, ?Ep, ?E, ?Eg; repeat split; auto.
  - congruence.
  - destruct HB as [HB|[Ho B]]; [discriminate|]. destruct (c_ll c) eqn:Ell.
    + rewrite PD in Cl by auto. discriminate.
    + inv_clauses I. rewrite I16 in Ho by exact Ell. discriminate.
Qed.

Lemma open_callers s :
  inv c s -> z_closed s = false -> pending s ->
  progresses c mu_o s \/ needs s = true /\ z_wclcur s = 0.
Proof.
  intros I Cl P.
  destruct (Nat.eq_0_gt_0_cases (z_wclcur s)) as [C1|C1]; [|left; apply open_closeinc, C1].
  destruct (Nat.eq_0_gt_0_cases (z_wclold s)) as [C2|C2]; [|left; apply open_closeold, C2].
  assert (C3 : 0 < z_wwoken s /\ z_top s < c_cap c \/ (0 < z_wwoken s -> c_cap c <= z_top s)) by lia.
  destruct C3 as [[W T]|C3]; [left; apply open_recheck; assumption|].
  destruct (room c s) eqn:R.
  - destruct (Nat.eq_0_gt_0_cases (z_nsyn s)) as [C4|C4]; [|left; apply open_send_sync; assumption].
    destruct (Nat.eq_0_gt_0_cases (z_nasy s)) as [C5|C5]; [|left; apply open_send_async; assumption].
    right. split; [apply needs_of_pending; auto; lia|exact C1].
  - right. split; [apply needs_of_pending; auto|exact C1].
Qed.

Lemma open_merger s :
  1 <= c_cap c -> 1 <= c_qcap c -> inv c s -> z_closed s = false ->
  needs s = true -> z_wclcur s = 0 -> progresses c mu_o s.
Proof.
  intros cap_pos qcap_pos I Cl N W. pose proof (inv_lk c s I) as L.
  pose proof (open_not_exiting c s I Cl) as X.
  destruct (z_mp s) eqn:E; try discriminate X.
  - apply open_MReply; assumption.
  - eapply progress_by; [apply step_LMCheck; assumption|reflexivity|].
    destruct (_ && _); apply move_dec; auto; moves E.
  - destruct (z_incc s) eqn:Ei.
    { eapply progress_by; [apply step_LMSelInc; assumption|reflexivity|]. apply move_dec; auto; moves E. }
    destruct (z_q s) as [|b r] eqn:Eq; [|eapply open_MSelPing; eassumption].
    destruct (open_MSelect_empty s); assumption.
  - apply open_MDrain; assumption.
  - apply open_MIngest; assumption.
  - eapply progress_by; [apply step_LMMergeOk; assumption|reflexivity|]. apply move_dec; auto; moves E.
  - destruct (step_LMHandover c s E L) as (s' & St & SC & _ & _ & _ & M & _).
    eapply progress_by; [exact St|reflexivity|]. pose proof (dP_bound s').
    apply move_dec; auto; [rewrite E; reflexivity| | |];
    unfold dI, dDr, dR; rewrite E; destruct M as [->|(g & -> & _)]; lia.
  - eapply open_MWaitOut; eassumption.
Qed.
End Open.
