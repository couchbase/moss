(* TreeInvFacts.v — the end-to-end theorems for the tree model (collections
   with child collections over a store), for an arbitrary merge operator:
   whatever the schedule of batches, merger rounds and persistence rounds
   (append, compaction at any splice point, no-op, failed), the current
   snapshot of the combined system "collection + store" (TreeInv.cstep) reads
   as the reference tree at every path of child names
   (tree_snapshot_reads_reference), and the store's footer tree reads as the
   reference tree after a prefix of the executed batches
   (tree_store_reads_prefix, tree_drained_store_is_reference).
   The proof is one invariant of the combined system (CInv), stated over an
   arbitrary starting reference tree so that TreeCyclesFacts can start it from
   any store: every live node of the bookkeeping tree, with the children of
   its name and incarnation selected from each section, reads as the node of
   the reference tree at the same path (NodeInv); a history ghost a <= b <= d
   as in Prefix.v says which prefix of the batches the lower level, base and
   mid hold. *)
From Coq Require Import List NArith Bool Lia Arith.
From Moss Require Import Bytes BytesFacts Segment SegmentFacts Stack StackFacts
     Collection CollectionFacts Store StoreFacts Tree TreeColl TreeFacts TreeInv TreeCycles.
From Moss Require Prefix.
Import ListNotations.
Set Implicit Arguments.

Section AssocFacts.
  Context {A : Type}.
  Implicit Types (l : list (cname * A)) (n : cname) (a : A).

  Lemma assoc_none_iff n l : assoc n l = None <-> ~ In n (map fst l).
  Proof.
    induction l as [|[n' a'] r IH]; simpl; [tauto|].
    destruct (beqb n' n) eqn:E.
    - apply beqb_true in E. subst. split; [discriminate|]. intros H. exfalso. apply H. auto.
    - apply beqb_false in E. rewrite IH. split.
      + intros H [H1|H1]; auto.
      + intros H H1. apply H. auto.
  Qed.

  Lemma assoc_some_in n l a : assoc n l = Some a -> In (n, a) l.
  Proof.
    induction l as [|[n' a'] r IH]; simpl; [discriminate|].
    destruct (beqb n' n) eqn:E.
    - apply beqb_true in E. subst. intros [= ->]. auto.
    - auto.
  Qed.

  Lemma assoc_some_name n l a : assoc n l = Some a -> In n (map fst l).
  Proof. intros H. apply assoc_some_in in H. apply in_map_iff. exists (n, a). auto. Qed.

  Lemma in_assoc_nodup n l a : NoDup (map fst l) -> In (n, a) l -> assoc n l = Some a.
  Proof.
    induction l as [|[n' a'] r IH]; simpl; intros Hn Hin; [destruct Hin|].
    inversion Hn as [|x y Hni Hnd']; subst. destruct Hin as [[= -> ->]|Hin].
    - now rewrite beqb_refl.
    - destruct (beqb n' n) eqn:E; auto.
      apply beqb_true in E. subst. exfalso. apply Hni. apply in_map_iff. exists (n, a). auto.
  Qed.

  Lemma in_names_assoc n l : In n (map fst l) -> exists a, assoc n l = Some a.
  Proof.
    intros H. destruct (assoc n l) eqn:E; eauto.
    apply assoc_none_iff in E. tauto.
  Qed.

  Lemma assoc_in_iff n l : In n (map fst l) <-> assoc n l <> None.
  Proof.
    split.
    - intros H E. apply assoc_none_iff in E. auto.
    - intros H. destruct (assoc n l) as [a|] eqn:E; [|congruence]. now apply assoc_some_name in E.
  Qed.

  Lemma assoc_aset_same n a l : assoc n (aset n a l) = Some a.
  Proof.
    induction l as [|[n' a'] r IH]; simpl.
    - now rewrite beqb_refl.
    - destruct (beqb n' n) eqn:E; simpl.
      + now rewrite beqb_refl.
      + now rewrite E.
  Qed.

  Lemma assoc_aset_other n n' a l : n <> n' -> assoc n' (aset n a l) = assoc n' l.
  Proof.
    intros Hne. induction l as [|[m a'] r IH]; simpl.
    - assert (beqb n n' = false) as -> by (apply beqb_false; auto). reflexivity.
    - destruct (beqb m n) eqn:E; simpl.
      + apply beqb_true in E. subst.
        assert (beqb n n' = false) as -> by (apply beqb_false; auto). reflexivity.
      + destruct (beqb m n'); auto.
  Qed.

  Lemma assoc_aremove_same n l : assoc n (aremove n l) = None.
  Proof.
    induction l as [|[m a'] r IH]; simpl; auto.
    destruct (beqb m n) eqn:E; simpl; auto. now rewrite E.
  Qed.

  Lemma assoc_aremove_other n n' l : n <> n' -> assoc n' (aremove n l) = assoc n' l.
  Proof.
    intros Hne. induction l as [|[m a'] r IH]; simpl; auto.
    destruct (beqb m n) eqn:E; simpl.
    - apply beqb_true in E. subst.
      assert (beqb n n' = false) as -> by (apply beqb_false; auto). auto.
    - destruct (beqb m n'); auto.
  Qed.

  Lemma aset_names_in n a l x : In x (map fst (aset n a l)) <-> x = n \/ In x (map fst l).
  Proof.
    induction l as [|[m a'] r IH]; simpl.
    - split; [intros [->|[]]; auto | intros [->|[]]; auto].
    - destruct (beqb m n) eqn:E; simpl.
      + apply beqb_true in E. subst. split; [intros [->|H1]; auto | intros [->|[->|H1]]; auto].
      + rewrite IH. split; [intros [->|[->|H1]]; auto | intros [->|[->|H1]]; auto].
  Qed.

  Lemma aset_nodup n a l : NoDup (map fst l) -> NoDup (map fst (aset n a l)).
  Proof.
    induction l as [|[m a'] r IH]; simpl; intros H.
    - constructor; auto.
    - inversion H as [|x y Hni Hnd']; subst. destruct (beqb m n) eqn:E; simpl.
      + apply beqb_true in E. subst. constructor; auto.
      + apply beqb_false in E. constructor; auto.
        rewrite aset_names_in. intros [->|Hin]; auto.
  Qed.

  Lemma aremove_names_in n l x : In x (map fst (aremove n l)) -> In x (map fst l).
  Proof.
    induction l as [|[m a'] r IH]; simpl; auto.
    destruct (beqb m n); simpl; intuition.
  Qed.

  Lemma aremove_nodup n l : NoDup (map fst l) -> NoDup (map fst (aremove n l)).
  Proof.
    induction l as [|[m a'] r IH]; simpl; intros H; auto.
    inversion H as [|x y Hni Hnd']; subst. destruct (beqb m n); simpl; auto.
    constructor; auto. intros Hin. apply aremove_names_in in Hin. auto.
  Qed.
End AssocFacts.
Arguments assoc_some_name {A} n l a.

Lemma names_iff_assoc {A B} (l1 : list (cname * A)) (l2 : list (cname * B)) n :
  (In n (map fst l1) <-> In n (map fst l2)) -> (assoc n l1 = None <-> assoc n l2 = None).
Proof.
  intros H. split; intros E; apply assoc_none_iff in E; apply assoc_none_iff; intros Hin;
    apply E; now apply H.
Qed.

Lemma names_assoc_none {A B} (l1 : list (cname * A)) (l2 : list (cname * B)) n :
  map fst l1 = map fst l2 -> (assoc n l1 = None <-> assoc n l2 = None).
Proof. intros H. now rewrite !assoc_none_iff, H. Qed.

Section TbInd.
  Variable P : tbatch -> Prop.
  Hypothesis H : forall ops bkids,
      (forall n cb, In (n, Some cb) bkids -> P cb) -> P (TB ops bkids).
  Lemma tbatch_ind' : forall b, P b.
  Proof.
    fix IH 1. intros [ops bkids]. apply H.
    induction bkids as [|[n' o] r IHr]; intros n cb Hin.
    - destruct Hin.
    - destruct o as [cb'|].
      + destruct Hin as [E|Hin].
        * assert (E' : cb' = cb) by congruence. rewrite <- E'. apply IH.
        * eapply IHr; eauto.
      + destruct Hin as [E|Hin]; [discriminate|]. eapply IHr; eauto.
  Qed.
End TbInd.

Section SsInd.
  Variable P : sstack -> Prop.
  Hypothesis H : forall a i l kids,
      (forall n c, In (n, c) kids -> P c) -> P (SS a i l kids).
  Lemma sstack_ind' : forall s, P s.
  Proof.
    fix IH 1. intros [a i l kids]. apply H.
    induction kids as [|[n' c'] r IHr]; intros n c Hin.
    - destruct Hin.
    - destruct Hin as [E|Hin].
      + assert (E' : c' = c) by congruence. rewrite <- E'. apply IH.
      + eapply IHr; eauto.
  Qed.
End SsInd.

Section FnInd.
  Variable P : fnode -> Prop.
  Hypothesis H : forall a i kids, (forall n c, In (n, c) kids -> P c) -> P (FN a i kids).
  Lemma fnode_ind' : forall f, P f.
  Proof.
    fix IH 1. intros [a i kids]. apply H.
    induction kids as [|[n' c'] r IHr]; intros n c Hin.
    - destruct Hin.
    - destruct Hin as [E|Hin].
      + assert (E' : c' = c) by congruence. rewrite <- E'. apply IH.
      + eapply IHr; eauto.
  Qed.
End FnInd.

Section BtGo.
  Variable rec : cnode -> tbatch -> option sstack -> cnode * sstack.
  Variable ck : list (cname * sstack).
  Fixpoint bt_go (l : list (cname * option tbatch))
           (acc : N * list (cname * cnode) * list (cname * sstack))
    : N * list (cname * cnode) * list (cname * sstack) :=
    match l with
    | [] => acc
    | (n, None) :: r =>
        let '(hi, mk, rv) := acc in bt_go r (hi, aremove n mk, rv)
    | (n, Some cb) :: r =>
        let '(hi, mk, rv) := acc in
        let '(child, hi') :=
          match assoc n mk with
          | Some c => (c, hi)
          | None => (CN (hi + 1) (hi + 1) [], (hi + 1)%N)
          end in
        let '(child', cst) := rec child cb (assoc n ck) in
        bt_go r (hi', aset n child' mk, aset n cst rv)
    end.
End BtGo.

Section BtCp.
  Variable mk : list (cname * cnode).
  Fixpoint bt_cp (l : list (cname * sstack)) (rv : list (cname * sstack)) : list (cname * sstack) :=
    match l with
    | [] => rv
    | (n, c) :: r =>
        match assoc n rv with
        | Some _ => bt_cp r rv
        | None =>
            match assoc n mk with
            | Some cm => if N.eqb (cn_incar cm) (ss_incar c)
                         then bt_cp r (aset n (prune cm c) rv) else bt_cp r rv
            | None => bt_cp r rv
            end
        end
    end.
End BtCp.

Lemma build_top_unfold m ops bkids cur :
  build_top m (TB ops bkids) cur =
  let cur_kids := match cur with Some s => ss_kids s | None => [] end in
  let cur_segs := match cur with Some s => ss_segs s | None => [] end in
  let '(hi, mkids, rvkids) := bt_go build_top cur_kids bkids (cn_highest m, cn_kids m, []) in
  (CN (cn_incar m) hi mkids,
   SS (batch_segs ops ++ cur_segs) (cn_incar m) None (bt_cp mkids cur_kids rvkids)).
Proof. reflexivity. Qed.

Section RaGo.
  Variable rec : rtree -> tbatch -> rtree.
  Fixpoint ra_go (l : list (cname * option tbatch)) (ks : list (cname * rtree))
    : list (cname * rtree) :=
    match l with
    | [] => ks
    | (n, None) :: r => ra_go r (aremove n ks)
    | (n, Some cb) :: r =>
        let cur := match assoc n ks with Some x => x | None => RT [] [] end in
        ra_go r (aset n (rec cur cb) ks)
    end.
End RaGo.

Lemma rt_apply_unfold t ops bkids :
  rt_apply t (TB ops bkids) = RT (rt_hist t ++ [ops]) (ra_go rt_apply bkids (rt_kids t)).
Proof. reflexivity. Qed.

(* the bookkeeping node a child batch is executed on *)
Inductive kid_src (mk : list (cname * cnode)) (hi hi' : N) (n : cname) : cnode -> Prop :=
| KS_old child : assoc n mk = Some child -> kid_src mk hi hi' n child
| KS_new f : assoc n mk = None -> (hi < f <= hi')%N -> kid_src mk hi hi' n (CN f f []).

Lemma kid_src_ext mk1 hi1 hi1' mk2 hi2 hi2' n child :
  kid_src mk1 hi1 hi1' n child -> assoc n mk1 = assoc n mk2 -> (hi2 <= hi1)%N -> (hi1' <= hi2')%N ->
  kid_src mk2 hi2 hi2' n child.
Proof. intros [c Ea|f Ea Hf] E H1 H2; rewrite E in Ea; [apply KS_old|apply KS_new]; auto. lia. Qed.

Section BtGoSpec.
  Variable rec : cnode -> tbatch -> option sstack -> cnode * sstack.
  Variable ck : list (cname * sstack).

  Lemma bt_go_spec l :
    NoDup (map fst l) -> forall hi mk rv hi' mk' rv',
    bt_go rec ck l (hi, mk, rv) = (hi', mk', rv') ->
    (hi <= hi')%N /\
    (NoDup (map fst mk) -> NoDup (map fst mk')) /\
    (NoDup (map fst rv) -> NoDup (map fst rv')) /\
    forall n,
      match assoc n l with
      | None => assoc n mk' = assoc n mk /\ assoc n rv' = assoc n rv
      | Some None => assoc n mk' = None /\ assoc n rv' = assoc n rv
      | Some (Some cb) =>
          exists child, kid_src mk hi hi' n child /\
                        assoc n mk' = Some (fst (rec child cb (assoc n ck))) /\
                        assoc n rv' = Some (snd (rec child cb (assoc n ck)))
      end.
  Proof.
    induction l as [|[n0 o0] r IH]; intros Hnd hi mk rv hi' mk' rv' E.
    - simpl in E. injection E as <- <- <-. repeat split; auto. lia.
    - simpl in Hnd. inversion Hnd as [|x y Hni Hnd']; subst.
      assert (Hr0 : assoc n0 r = None) by (apply assoc_none_iff; auto).
      destruct o0 as [cb|]; cbn [bt_go] in E.
      + destruct (match assoc n0 mk with
                  | Some c => (c, hi)
                  | None => (CN (hi + 1) (hi + 1) [], (hi + 1)%N)
                  end) as [child hi1] eqn:Ec.
        assert (Hc : (hi <= hi1)%N /\ kid_src mk hi hi1 n0 child).
        { destruct (assoc n0 mk) as [c|] eqn:Ea; injection Ec as <- <-; split; try lia.
          - now apply KS_old.
          - apply KS_new; [exact Ea|lia]. }
        destruct Hc as [Hh1 Hc].
        destruct (rec child cb (assoc n0 ck)) as [child' cst] eqn:Er.
        apply IH in E; auto. destruct E as (Hh & Hm & Hr & Hs).
        split; [lia|]. split; [intros; apply Hm, aset_nodup; auto|].
        split; [intros; apply Hr, aset_nodup; auto|].
        intros n. specialize (Hs n). cbn [assoc]. destruct (beqb n0 n) eqn:En.
        * apply beqb_true in En. subst n. rewrite Hr0, !assoc_aset_same in Hs.
          exists child. rewrite Er. split; [|exact Hs].
          apply kid_src_ext with (1 := Hc); [reflexivity|lia|lia].
        * apply beqb_false in En. rewrite !assoc_aset_other in Hs by auto.
          destruct (assoc n r) as [[cb'|]|]; auto.
          destruct Hs as (child0 & Hc0 & Hs). exists child0. split; [|exact Hs].
          apply kid_src_ext with (1 := Hc0); [now apply assoc_aset_other|lia|lia].
      + apply IH in E; auto. destruct E as (Hh & Hm & Hr & Hs).
        split; [auto|]. split; [intros; apply Hm, aremove_nodup; auto|]. split; [auto|].
        intros n. specialize (Hs n). cbn [assoc]. destruct (beqb n0 n) eqn:En.
        * apply beqb_true in En. subst n. now rewrite Hr0, assoc_aremove_same in Hs.
        * apply beqb_false in En.
          destruct (assoc n r) as [[cb'|]|]; rewrite ?assoc_aremove_other in Hs by auto; auto.
          destruct Hs as (child0 & Hc0 & Hs). exists child0. split; [|exact Hs].
          apply kid_src_ext with (1 := Hc0); [now apply assoc_aremove_other|lia|lia].
  Qed.
End BtGoSpec.

Section RaGoSpec.
  Variable rec : rtree -> tbatch -> rtree.
  Lemma ra_go_spec l :
    NoDup (map fst l) -> forall ks n,
      match assoc n l with
      | None => assoc n (ra_go rec l ks) = assoc n ks
      | Some None => assoc n (ra_go rec l ks) = None
      | Some (Some cb) =>
          assoc n (ra_go rec l ks)
          = Some (rec (match assoc n ks with Some x => x | None => RT [] [] end) cb)
      end.
  Proof.
    induction l as [|[n0 o0] r IH]; intros Hnd ks n; [reflexivity|].
    inversion Hnd as [|x y Hni Hnd']; subst. apply assoc_none_iff in Hni.
    set (ks' := match o0 with
                | Some cb => aset n0 (rec (match assoc n0 ks with Some x => x | None => RT [] [] end) cb) ks
                | None => aremove n0 ks
                end).
    assert (E : ra_go rec ((n0, o0) :: r) ks = ra_go rec r ks') by (destruct o0; reflexivity).
    rewrite E. specialize (IH Hnd' ks' n). cbn [assoc]. destruct (beqb n0 n) eqn:En.
    - apply beqb_true in En. subst n. rewrite Hni in IH. rewrite IH.
      destruct o0; [apply assoc_aset_same|apply assoc_aremove_same].
    - apply beqb_false in En.
      assert (Ek : assoc n ks' = assoc n ks)
        by (destruct o0; [apply assoc_aset_other|apply assoc_aremove_other]; exact En).
      now rewrite Ek in IH.
  Qed.
End RaGoSpec.

Lemma bt_cp_nodup mk l : forall rv, NoDup (map fst rv) -> NoDup (map fst (bt_cp mk l rv)).
Proof.
  induction l as [|[n0 c0] r IH]; intros rv H; cbn [bt_cp]; auto.
  destruct (assoc n0 rv); auto.
  destruct (assoc n0 mk) as [cm|]; auto.
  destruct (N.eqb (cn_incar cm) (ss_incar c0)); auto.
  apply IH, aset_nodup; auto.
Qed.

Lemma bt_cp_assoc mk l n :
  NoDup (map fst l) -> forall rv,
    assoc n (bt_cp mk l rv) =
    match assoc n rv with
    | Some x => Some x
    | None => match assoc n mk, assoc n l with
              | Some cm, Some c => if N.eqb (cn_incar cm) (ss_incar c) then Some (prune cm c) else None
              | _, _ => None
              end
    end.
Proof.
  induction l as [|[n0 c0] r IH]; intros Hnd rv; cbn [bt_cp].
  - cbn [assoc]. destruct (assoc n rv); auto. destruct (assoc n mk); auto.
  - inversion Hnd as [|x y Hni Hnd']; subst.
    cbn [assoc]. destruct (beqb n0 n) eqn:En.
    + apply beqb_true in En. subst n0.
      assert (Hr : assoc n r = None) by (apply assoc_none_iff; auto).
      destruct (assoc n rv) as [x|] eqn:Erv; [rewrite IH by auto; now rewrite Erv|].
      destruct (assoc n mk) as [cm|] eqn:Emk; [|rewrite IH by auto; now rewrite Erv].
      destruct (N.eqb (cn_incar cm) (ss_incar c0)); rewrite IH by auto.
      * now rewrite assoc_aset_same.
      * now rewrite Erv, Hr.
    + apply beqb_false in En.
      destruct (assoc n0 rv) as [x|] eqn:Erv0; [apply IH; auto|].
      destruct (assoc n0 mk) as [cm0|] eqn:Emk0; [|apply IH; auto].
      destruct (N.eqb (cn_incar cm0) (ss_incar c0)); [|apply IH; auto].
      rewrite IH by auto. now rewrite assoc_aset_other by auto.
Qed.

(* what ExecuteBatch and snapshot() build, and what merging and refreshing keep *)
Inductive SLive : cnode -> sstack -> Prop :=
| SLv m s :
    NoDup (map fst (ss_kids s)) ->
    (forall n c, assoc n (ss_kids s) = Some c -> assoc n (cn_kids m) <> None) ->
    (forall n c cm, assoc n (ss_kids s) = Some c -> assoc n (cn_kids m) = Some cm ->
                    ss_incar c = cn_incar cm) ->
    (forall n c cm, assoc n (ss_kids s) = Some c -> assoc n (cn_kids m) = Some cm -> SLive cm c) ->
    SLive m s.

Inductive FLive : cnode -> fnode -> Prop :=
| FLv m f :
    NoDup (map fst (fn_kids f)) ->
    (forall n y, assoc n (fn_kids f) = Some y -> assoc n (cn_kids m) <> None) ->
    (forall n y cm, assoc n (fn_kids f) = Some y -> assoc n (cn_kids m) = Some cm ->
                    fn_incar y = cn_incar cm) ->
    (forall n y cm, assoc n (fn_kids f) = Some y -> assoc n (cn_kids m) = Some cm -> FLive cm y) ->
    FLive m f.

Definition SLiveO (m : cnode) (o : option sstack) : Prop :=
  match o with Some s => SLive m s | None => True end.
Definition FLiveO (m : cnode) (o : option fnode) : Prop :=
  match o with Some f => FLive m f | None => True end.

Record TopOk (m : cnode) (s : sstack) : Prop := {
  top_incar : ss_incar s = cn_incar m;
  top_live : SLive m s
}.
Notation TopOkO m T := (forall t, T = Some t -> TopOk m t).

Lemma SLive_kid m s n c :
  SLive m s -> assoc n (ss_kids s) = Some c ->
  exists cm, assoc n (cn_kids m) = Some cm /\ TopOk cm c.
Proof.
  intros Hl E. inversion Hl as [m0 s0 _ H1 H2 H3]; subst.
  destruct (assoc n (cn_kids m)) as [cm|] eqn:Ea; [|exfalso; eapply H1; eauto].
  exists cm. split; [reflexivity|]. split; eauto.
Qed.

Lemma prune_id m s : TopOk m s -> prune m s = s.
Proof.
  intros [Hi Hl]. revert Hi. induction Hl as [m s Hnd H1 H2 H3 IH]. intros Hi.
  assert (Hk : forall n c, In (n, c) (ss_kids s) ->
                 exists cm, assoc n (cn_kids m) = Some cm /\ ss_incar c = cn_incar cm /\ prune cm c = c).
  { intros n c Hc. apply (in_assoc_nodup _ _ _ Hnd) in Hc.
    destruct (assoc n (cn_kids m)) as [cm|] eqn:Ea; [|exfalso; eapply H1; eauto].
    exists cm. split; [reflexivity|]. split; [eauto|]. eapply IH; eauto. }
  destruct s as [a i ll kids]. cbn [prune]. cbn in Hi, Hk. subst i. f_equal.
  clear - Hk. induction kids as [|[n c] r IHr]; [reflexivity|].
  destruct (Hk n c (or_introl eq_refl)) as (cm & -> & Hi & Hp).
  rewrite Hi, N.eqb_refl, Hp. f_equal. apply IHr. intros; apply Hk; right; auto.
Qed.

Lemma sel_assoc n o c : assoc n (okids o) = Some c -> sel n (ss_incar c) o = Some c.
Proof.
  destruct o as [s|]; simpl; [|discriminate]. intros ->. now rewrite N.eqb_refl.
Qed.
Arguments sel_assoc : clear implicits.

Lemma fsel_inv n i f y :
  fsel n i (Some f) = Some y -> assoc n (fn_kids f) = Some y /\ fn_incar y = i.
Proof.
  cbn [fsel]. destruct (assoc n (fn_kids f)) as [y'|]; [|discriminate].
  destruct (N.eqb (fn_incar y') i) eqn:E; [|discriminate].
  intros [= <-]. apply N.eqb_eq in E. auto.
Qed.

Lemma fsel_some n i o y : fsel n i o = Some y -> fn_incar y = i.
Proof. destruct o as [f|]; [|discriminate]. intros H. apply (fsel_inv _ _ _ H). Qed.
Arguments fsel_some : clear implicits.

Lemma csecs_osecs n i os :
  fold_right (fun s acc => match assoc n (ss_kids s) with
                           | Some c => if N.eqb (ss_incar c) i then c :: acc else acc
                           | None => acc end) [] (osecs os)
  = osecs (map (sel n i) os).
Proof.
  unfold osecs. induction os as [|o os IH]; [reflexivity|].
  destruct o as [s|]; simpl; auto.
  rewrite IH. destruct (assoc n (ss_kids s)) as [c|]; auto.
  destruct (N.eqb (ss_incar c) i); auto.
Qed.

Lemma mentioned_osecs n i os :
  existsb (fun s => match assoc n (ss_kids s) with
                    | Some c => N.eqb (ss_incar c) i
                    | None => false end) (osecs os)
  = existsb has_some (map (sel n i) os).
Proof.
  unfold osecs. induction os as [|o os IH]; [reflexivity|].
  destruct o as [s|]; simpl; auto.
  rewrite IH. destruct (assoc n (ss_kids s)) as [c|]; auto.
  destruct (N.eqb (ss_incar c) i); auto.
Qed.

Lemma assemble_segs m secs ll lr : ss_segs (assemble m secs ll lr) = concat (map ss_segs secs).
Proof. destruct m; reflexivity. Qed.
Lemma assemble_incar m secs ll lr : ss_incar (assemble m secs ll lr) = cn_incar m.
Proof. destruct m; reflexivity. Qed.
Lemma assemble_llcap m secs ll lr : ss_llcap (assemble m secs ll lr) = ll.
Proof. destruct m; reflexivity. Qed.

Lemma assemble_kid m os ll lr n :
  NoDup (map fst (cn_kids m)) ->
  assoc n (ss_kids (assemble m (osecs os) ll lr)) =
  match assoc n (cn_kids m) with
  | Some cm =>
      if lr || existsb has_some (map (sel n (cn_incar cm)) os)
      then Some (assemble cm (osecs (map (sel n (cn_incar cm)) os)) (fsel n (cn_incar cm) ll) lr)
      else None
  | None => None
  end.
Proof.
  destruct m as [inc hi mkids]. cbn [assemble ss_kids cn_kids].
  induction mkids as [|[n' cm] r IH]; intros Hnd; [reflexivity|].
  simpl in Hnd. inversion Hnd as [|x y Hni Hnd']; subst.
  cbn [assoc]. rewrite csecs_osecs, mentioned_osecs.
  destruct (beqb n' n) eqn:En.
  - apply beqb_true in En. subst n'.
    destruct (lr || existsb has_some (map (sel n (cn_incar cm)) os)).
    + cbn [assoc]. rewrite beqb_refl. f_equal.
    + rewrite IH by auto.
      assert (assoc n r = None) as -> by (apply assoc_none_iff; auto). reflexivity.
  - destruct (lr || existsb has_some (map (sel n' (cn_incar cm)) os)).
    + cbn [assoc]. rewrite En. apply IH; auto.
    + apply IH; auto.
Qed.

Section OneLevel.
  Variable fm : bytes -> value -> bytes -> value.

  Lemma merge_node_llcap t s base : ss_llcap (merge_node fm t s base) = ss_llcap s.
  Proof. destruct s; reflexivity. Qed.

  Lemma set_llcap_segs s l : ss_segs (set_llcap s l) = ss_segs s.
  Proof. destruct s; reflexivity. Qed.
  Lemma set_llcap_kids s l : ss_kids (set_llcap s l) = ss_kids s.
  Proof. destruct s; reflexivity. Qed.
  Lemma set_llcap_llcap s l : ss_llcap (set_llcap s l) = l.
  Proof. destruct s; reflexivity. Qed.
End OneLevel.

Lemma segs_osecs os : concat (map ss_segs (osecs os)) = concat (map osegs os).
Proof.
  unfold osecs. induction os as [|o os IH]; [reflexivity|].
  destruct o as [s|]; simpl; now rewrite IH.
Qed.

Lemma not_none_has_some {A} (o : option A) : o <> None <-> has_some o = true.
Proof. destruct o; simpl; split; congruence. Qed.

(* two stacks that differ in the captured lower-level snapshots only *)
Inductive LlEq : sstack -> sstack -> Prop :=
| LE s s' :
    ss_segs s = ss_segs s' -> ss_incar s = ss_incar s' ->
    map fst (ss_kids s) = map fst (ss_kids s') ->
    (forall n c c', assoc n (ss_kids s) = Some c -> assoc n (ss_kids s') = Some c' -> LlEq c c') ->
    LlEq s s'.

Definition LlEqO (o o' : option sstack) : Prop :=
  match o, o' with
  | None, None => True
  | Some s, Some s' => LlEq s s'
  | _, _ => False
  end.

Lemma LlEq_refl s : LlEq s s.
Proof.
  induction s as [a i l kids IH] using sstack_ind'.
  constructor; auto.
  intros n c c' H1 H2. cbn [ss_kids] in *. rewrite H1 in H2. injection H2 as <-.
  apply assoc_some_in in H1. eauto.
Qed.

Lemma refresh_lleq s : forall m ll, LlEq s (refresh_llcap m s ll).
Proof.
  induction s as [a i l kids IH] using sstack_ind'. intros m ll.
  constructor.
  - now rewrite refresh_llcap_segs.
  - now rewrite refresh_llcap_incar.
  - now rewrite refresh_llcap_kids_eq, names_map_kids.
  - intros n c c' H1 H2. rewrite refresh_llcap_kids_eq, assoc_map_kids, H1 in H2. injection H2 as <-.
    cbn [ss_kids] in H1. apply assoc_some_in in H1.
    destruct (assoc n (cn_kids m)) as [cm|]; [|apply LlEq_refl].
    destruct (N.eqb (cn_incar cm) (ss_incar c)); [|apply LlEq_refl].
    eapply IH; eauto.
Qed.

Lemma LlEqO_segs o o' : LlEqO o o' -> osegs o' = osegs o.
Proof.
  destruct o as [s|], o' as [s'|]; cbn; try tauto. inversion 1; subst; auto.
Qed.

Lemma LlEqO_none o o' : LlEqO o o' -> (o' = None <-> o = None).
Proof. destruct o, o'; cbn; intros H; split; try congruence; tauto. Qed.

Lemma LlEqO_sel o o' n i : LlEqO o o' -> LlEqO (sel n i o) (sel n i o').
Proof.
  destruct o as [s|], o' as [s'|]; cbn [LlEqO]; try tauto.
  intros H. inversion H as [s0 s0' Hs Hi Hn Hk]; subst. cbn [sel].
  apply names_assoc_none with (n := n) in Hn. specialize (Hk n).
  destruct (assoc n (ss_kids s)) as [c|], (assoc n (ss_kids s')) as [c'|].
  - pose proof (Hk c c' eq_refl eq_refl) as Hc. inversion Hc as [c0 c0' _ Hi' _ _]; subst.
    rewrite <- Hi'. destruct (N.eqb (ss_incar c) i); cbn; auto.
  - destruct Hn as [_ Hn]. discriminate (Hn eq_refl).
  - destruct Hn as [Hn _]. discriminate (Hn eq_refl).
  - exact I.
Qed.

(* merge-freeness of a whole stack tree, one level *)
Lemma ss_has_merge_inv b :
  ss_has_merge b = false ->
  existsb seg_has_merge (ss_segs b) = false /\
  forall n c, assoc n (ss_kids b) = Some c -> ss_has_merge c = false.
Proof.
  destruct b as [a i ll kids]. cbn [ss_has_merge ss_segs ss_kids].
  intros H. apply orb_false_iff in H. destruct H as [H1 H2]. split; auto.
  clear H1. induction kids as [|[n' c'] r IH]; intros n c; cbn [assoc]; [discriminate|].
  apply orb_false_iff in H2. destruct H2 as [H2 H3].
  destruct (beqb n' n); [intros [= <-]; auto|]. apply IH; auto.
Qed.

Section Inv.
  Variable fm : bytes -> value -> bytes -> value.
  Notation sget := (sget fm).
  Notation fn_get := (fn_get fm).
  Notation rt_get := (rt_get fm).

  (* lr:  the collection has a lower level;
     w:   the lower-level snapshots carried by base are known to be current;
     cap: the base stack the merger captured at ingest, while it is merging.
     nl_bound: no section holds a node for an incarnation not yet given out.
     nl_pa, nl_pb: a section that exists has a node for every live child that
     a section beneath it has one for (base for the lower level's, mid for
     base's and the lower level's).  nl_ment: without a lower level every live
     child has a node in top or mid, so snapshot() keeps it. *)
  Record NodeLocal (lr w : bool) (cap : option (option sstack)) (m : cnode)
         (T M B C : option sstack) (L : option fnode) (r : rtree) : Prop := {
    nl_view : forall k, sget (osegs T ++ osegs M ++ osegs B) (fn_get L) k = rt_get r k;
    nl_clean : forall k, sget (osegs C) (fn_get L) k = fn_get L k;
    nl_cap : forall K ms, cap = Some K -> M = Some ms ->
                          forall k, node_below fm ms K k = sget (osegs B) (fn_get L) k;
    nl_bll : w = true -> forall b, B = Some b -> ss_llcap b = L;
    nl_nodup : NoDup (map fst (cn_kids m));
    nl_names : forall n, assoc n (cn_kids m) = None <-> assoc n (rt_kids r) = None;
    nl_kbound : forall n cm, assoc n (cn_kids m) = Some cm -> (cn_incar cm <= cn_highest m)%N;
    nl_bound : forall n i, (cn_highest m < i)%N ->
                           sel n i M = None /\ sel n i B = None /\ sel n i C = None /\ fsel n i L = None;
    nl_pa : B <> None -> forall n cm, assoc n (cn_kids m) = Some cm ->
                                      fsel n (cn_incar cm) L <> None -> sel n (cn_incar cm) B <> None;
    nl_pb : M <> None -> forall n cm, assoc n (cn_kids m) = Some cm ->
                                      sel n (cn_incar cm) B <> None \/ fsel n (cn_incar cm) L <> None ->
                                      sel n (cn_incar cm) M <> None;
    nl_nolr : lr = false -> B = None /\ C = None /\ L = None;
    nl_ment : lr = false -> forall n cm, assoc n (cn_kids m) = Some cm ->
                                         sel n (cn_incar cm) T <> None \/ sel n (cn_incar cm) M <> None
  }.

  Inductive NodeInv (lr : bool) : bool -> option (option sstack) -> cnode ->
                                  option sstack -> option sstack -> option sstack ->
                                  option sstack -> option fnode -> rtree -> Prop :=
  | NI w cap m T M B C L r :
      NodeLocal lr w cap m T M B C L r ->
      (forall n cm cr, assoc n (cn_kids m) = Some cm -> assoc n (rt_kids r) = Some cr ->
                       NodeInv lr w (option_map (sel n (cn_incar cm)) cap) cm
                               (sel n (cn_incar cm) T) (sel n (cn_incar cm) M)
                               (sel n (cn_incar cm) B) (sel n (cn_incar cm) C)
                               (fsel n (cn_incar cm) L) cr) ->
      NodeInv lr w cap m T M B C L r.

  Lemma NodeInv_local lr w cap m T M B C L r :
    NodeInv lr w cap m T M B C L r -> NodeLocal lr w cap m T M B C L r.
  Proof. now inversion 1. Qed.

  Lemma NodeInv_kid lr w cap m T M B C L r n cm cr :
    NodeInv lr w cap m T M B C L r ->
    assoc n (cn_kids m) = Some cm -> assoc n (rt_kids r) = Some cr ->
    NodeInv lr w (option_map (sel n (cn_incar cm)) cap) cm
            (sel n (cn_incar cm) T) (sel n (cn_incar cm) M)
            (sel n (cn_incar cm) B) (sel n (cn_incar cm) C) (fsel n (cn_incar cm) L) cr.
  Proof. inversion 1; subst; auto. Qed.

  (* what snapshot() assembles from a live node reads as the reference node *)
  Lemma snapshot_view lr w cap m T M B C L r :
    NodeLocal lr w cap m T M B C L r ->
    forall k, sget (osegs T ++ osegs M ++ osegs B ++ osegs C) (fn_get L) k = rt_get r k.
  Proof.
    intros HL k. rewrite <- (nl_view HL k).
    rewrite !app_assoc. rewrite sget_app. rewrite <- !app_assoc.
    apply sget_ext. apply (nl_clean HL).
  Qed.

  Lemma assemble_reads_as lr w cap m T M B C L r :
    NodeInv lr w cap m T M B C L r ->
    reads_as fm (assemble m (osecs [T; M; B; C]) L lr) r.
  Proof.
    induction 1 as [w cap m T M B C L r HL Hk IH].
    assert (Hkid : forall n, assoc n (ss_kids (assemble m (osecs [T; M; B; C]) L lr)) =
                             match assoc n (cn_kids m) with
                             | Some cm => Some (assemble cm (osecs [sel n (cn_incar cm) T; sel n (cn_incar cm) M;
                                                                    sel n (cn_incar cm) B; sel n (cn_incar cm) C])
                                                         (fsel n (cn_incar cm) L) lr)
                             | None => None end).
    { intros n. rewrite assemble_kid by apply (nl_nodup HL).
      destruct (assoc n (cn_kids m)) as [cm|] eqn:E; auto.
      assert (Hc : lr || existsb has_some (map (sel n (cn_incar cm)) [T; M; B; C]) = true).
      { destruct lr; auto. cbn [orb map existsb].
        destruct (nl_ment HL eq_refl n E) as [H1|H1];
          apply not_none_has_some in H1; rewrite H1; auto. apply orb_true_r. }
      rewrite Hc. reflexivity. }
    constructor.
    - intros k. unfold ss_get. rewrite assemble_segs, assemble_llcap, segs_osecs.
      cbn [map concat]. rewrite app_nil_r. apply (snapshot_view HL).
    - intros n. rewrite !assoc_in_iff. rewrite Hkid.
      pose proof (nl_names HL n) as Hn.
      destruct (assoc n (cn_kids m)); split; intros H1 H2; try congruence.
      + apply Hn in H2. discriminate.
      + apply H1. now apply Hn.
    - intros n cs cr Hs Hr. rewrite Hkid in Hs.
      destruct (assoc n (cn_kids m)) as [cm|] eqn:E; [|discriminate].
      injection Hs as <-. eapply IH; eauto.
  Qed.

  (* Forgetting what is tracked: that the lower-level snapshots carried by base
     are current, the clean section, and what the merger captured - which says
     nothing anyway while mid is empty. *)
  Lemma relax_inv lr w cap m T M B C L r :
    NodeInv lr w cap m T M B C L r ->
    forall w' cap' C',
      (w' = true -> w = true) -> (cap' = cap \/ cap' = None \/ M = None) -> (C' = C \/ C' = None) ->
      NodeInv lr w' cap' m T M B C' L r.
  Proof.
    induction 1 as [w cap m T M B C L r HL Hk IH]. intros w' cap' C' Hw Hcap' HC'.
    constructor.
    - destruct HL as [Hv Hc Hcap Hbll Hnd' Hnm Hkb Hb Hpa Hpb Hno Hme].
      constructor; auto.
      + destruct HC' as [->| ->]; [exact Hc|reflexivity].
      + intros K ms EK EM. destruct Hcap' as [->|[->| ->]]; [now apply Hcap|discriminate|discriminate].
      + intros n i Hi. destruct (Hb n i Hi) as (H1 & H2 & H3 & H4).
        destruct HC' as [->| ->]; auto.
      + intros Hlr. destruct (Hno Hlr) as (H1 & H2 & H3). destruct HC' as [->| ->]; auto.
    - intros n cm cr Ea Er. apply (IH n cm cr Ea Er); [exact Hw| |].
      + destruct Hcap' as [->|[->| ->]]; auto.
      + destruct HC' as [->| ->]; auto.
  Qed.

  Lemma weaken_inv lr w cap m T M B C L r :
    NodeInv lr w cap m T M B C L r -> NodeInv lr false cap m T M B None L r.
  Proof. intros H. apply (relax_inv H); auto. discriminate. Qed.
End Inv.

Lemma sel_assemble m os L lr n cm :
  NoDup (map fst (cn_kids m)) -> assoc n (cn_kids m) = Some cm ->
  sel n (cn_incar cm) (Some (assemble m (osecs os) L lr)) =
  if lr || existsb has_some (map (sel n (cn_incar cm)) os)
  then Some (assemble cm (osecs (map (sel n (cn_incar cm)) os)) (fsel n (cn_incar cm) L) lr)
  else None.
Proof.
  intros Hnd E. cbn [sel]. rewrite assemble_kid by auto. rewrite E.
  destruct (lr || existsb has_some (map (sel n (cn_incar cm)) os)); auto.
  now rewrite assemble_incar, N.eqb_refl.
Qed.

Lemma sel_assemble_incar m os L lr n i c :
  NoDup (map fst (cn_kids m)) ->
  sel n i (Some (assemble m (osecs os) L lr)) = Some c ->
  exists cm, assoc n (cn_kids m) = Some cm /\ i = cn_incar cm.
Proof.
  intros Hnd H. apply sel_some in H. destruct H as [Hi Ha]. cbn [okids] in Ha.
  rewrite assemble_kid in Ha by auto.
  destruct (assoc n (cn_kids m)) as [cm|]; [|discriminate].
  exists cm. split; auto.
  destruct (lr || _); [|discriminate]. injection Ha as <-.
  now rewrite assemble_incar in Hi.
Qed.

Section MergerSteps.
  Variable fm : bytes -> value -> bytes -> value.
  Notation sget := (sget fm).
  Notation fn_get := (fn_get fm).
  Notation NodeInv := (NodeInv fm).
  Notation NodeLocal := (NodeLocal fm).

  Definition ing_rel (lr : bool) (m : cnode) (T M : option sstack) (L : option fnode)
             (M' : option sstack) : Prop :=
    M' = Some (assemble m (osecs [T; M]) L lr) \/ (M' = None /\ T = None /\ M = None).

  Lemma ingest_inv lr w cap m T M B C L r :
    NodeInv lr w cap m T M B C L r -> w = true ->
    forall M', ing_rel lr m T M L M' -> NodeInv lr true (Some B) m None M' B C L r.
  Proof.
    induction 1 as [w cap m T M B C L r HL Hk IH]. intros -> M' [->|(-> & -> & ->)].
    2:{ apply (relax_inv (NI HL Hk)); auto. }
    pose proof (nl_nodup HL) as Hnd.
    assert (Hsegs : osegs (Some (assemble m (osecs [T; M]) L lr)) = osegs T ++ osegs M).
    { cbn [osegs]. rewrite assemble_segs, segs_osecs. cbn [map concat]. now rewrite app_nil_r. }
    constructor.
    - destruct HL as [Hv Hc Hcap Hbll Hnd' Hnm Hkb Hb Hpa Hpb Hno Hme].
      constructor; auto.
      + intros k. rewrite Hsegs. cbn [osegs app]. rewrite <- app_assoc. apply Hv.
      + intros K ms [= <-] [= <-] k. unfold node_below.
        destruct B as [b|].
        * cbn [osegs]. now rewrite (Hbll eq_refl b eq_refl).
        * now rewrite assemble_llcap.
      + intros n i Hi. destruct (Hb n i Hi) as (H1 & H2 & H3 & H4). repeat split; auto.
        destruct (sel n i (Some (assemble m (osecs [T; M]) L lr))) as [c|] eqn:Es; auto.
        apply sel_assemble_incar in Es; auto. destruct Es as (cm & Ea & ->).
        pose proof (Hkb n cm Ea). lia.
      + intros _ n cm Ea Hor. rewrite sel_assemble by auto.
        destruct lr; [discriminate|]. destruct (Hno eq_refl) as (-> & _ & ->).
        destruct Hor as [Hor|Hor]; exfalso; apply Hor; reflexivity.
      + intros Hlr n cm Ea. right. rewrite sel_assemble by auto. subst lr. cbn [orb map existsb].
        destruct (Hme eq_refl n cm Ea) as [H1|H1]; apply not_none_has_some in H1; rewrite H1;
          cbn [orb]; try rewrite orb_true_r; discriminate.
    - intros n cm cr Ea Er. cbn [option_map]. apply (IH n cm cr Ea Er); auto.
      rewrite sel_assemble by auto. cbn [map].
      destruct (lr || existsb has_some [sel n (cn_incar cm) T; sel n (cn_incar cm) M]) eqn:Ec.
      + left. reflexivity.
      + right. apply orb_false_iff in Ec. destruct Ec as [_ Ec]. cbn [existsb] in Ec.
        apply orb_false_iff in Ec. destruct Ec as [E1 Ec]. apply orb_false_iff in Ec.
        destruct Ec as [E2 _].
        destruct (sel n (cn_incar cm) T); [discriminate|].
        destruct (sel n (cn_incar cm) M); [discriminate|]. auto.
  Qed.

  Definition mrel (M M' K : option sstack) : Prop :=
    (M = None /\ M' = None) \/
    exists ms t, M = Some ms /\ M' = Some (merge_node fm t ms K).

  Lemma swap_inv lr w cap m T M B C L r :
    NodeInv lr w cap m T M B C L r ->
    forall K M', cap = Some K -> mrel M M' K -> NodeInv lr w None m T M' B C L r.
  Proof.
    induction 1 as [w cap m T M B C L r HL Hk IH].
    intros K M' -> [(-> & ->)|(ms & t & -> & ->)].
    { apply (relax_inv (NI HL Hk)); auto. }
    constructor.
    - destruct HL as [Hv Hc Hcap Hbll Hnd' Hnm Hkb Hb Hpa Hpb Hno Hme].
      assert (Hsel : forall n i, sel n i (Some ms) = None <->
                                 sel n i (Some (merge_node fm t ms K)) = None).
      { intros n i. rewrite sel_merge_node. destruct (sel n i (Some ms)); cbn; split; congruence. }
      constructor; auto; try discriminate.
      + intros k. rewrite <- (Hv k). rewrite !(sget_app fm (osegs T)). apply sget_ext.
        rewrite !sget_app. cbn [osegs]. apply merge_node_view_over.
        intros k'. apply (Hcap K ms eq_refl eq_refl).
      + intros n i Hi. destruct (Hb n i Hi) as (H1 & H2 & H3 & H4). repeat split; auto.
        now apply Hsel.
      + intros _ n cm Ea Hor. intros Hn. apply Hsel in Hn. revert Hn.
        apply Hpb; auto. discriminate.
      + intros Hlr n cm Ea. destruct (Hme Hlr n cm Ea) as [H1|H1]; auto.
        right. intros Hn. apply Hsel in Hn. auto.
    - intros n cm cr Ea Er. cbn [option_map].
      apply (IH n cm cr Ea Er (sel n (cn_incar cm) K)); [reflexivity|].
      rewrite sel_merge_node.
      destruct (sel n (cn_incar cm) (Some ms)) as [c|]; cbn [option_map]; [|left; auto].
      right. do 2 eexists. split; reflexivity.
  Qed.

  Lemma handover_inv lr w m T M B C L r :
    NodeInv lr w None m T M B C L r -> B = None -> lr = true ->
    forall B', LlEqO M B' -> NodeInv lr false None m T None B' C L r.
  Proof.
    remember (@None (option sstack)) as cap eqn:Ecap.
    induction 1 as [w cap m T M B C L r HL Hk IH]. intros -> Hlr B' Hh. subst cap.
    constructor.
    - destruct HL as [Hv Hc Hcap Hbll Hnd' Hnm Hkb Hb Hpa Hpb Hno Hme].
      assert (Hsel : forall n i, sel n i B' = None <-> sel n i M = None).
      { intros n i. apply LlEqO_none. now apply LlEqO_sel. }
      constructor; auto; try discriminate; try congruence.
      + intros k. rewrite <- (Hv k). rewrite (LlEqO_segs _ _ Hh). cbn [osegs].
        now rewrite !app_nil_r.
      + intros n i Hi. destruct (Hb n i Hi) as (H1 & H2 & H3 & H4). repeat split; auto.
        now apply Hsel.
      + intros Hn n cm Ea Hf. intros Hs. apply Hsel in Hs. revert Hs.
        apply Hpb; auto. intros HM. apply Hn. now apply (LlEqO_none _ _ Hh).
    - intros n cm cr Ea Er. cbn [option_map]. apply (IH n cm cr Ea Er); auto.
      now apply LlEqO_sel.
  Qed.

  Lemma bll_upgrade lr w cap m T M B C L r :
    NodeInv lr w cap m T M B C L r ->
    (B = None \/ exists b, B = Some (refresh_llcap m b L)) ->
    NodeInv lr true cap m T M B C L r.
  Proof.
    induction 1 as [w cap m T M B C L r HL Hk IH]. intros HB.
    constructor.
    - destruct HL as [Hv Hc Hcap Hbll Hnd' Hnm Hkb Hb Hpa Hpb Hno Hme].
      constructor; auto.
      intros _ b Eb. destruct HB as [->|(b0 & ->)]; [discriminate|].
      injection Eb as <-. apply refresh_llcap_llcap.
    - intros n cm cr Ea Er. apply (IH n cm cr Ea Er).
      destruct HB as [->|(b0 & ->)]; [left; reflexivity|].
      rewrite (sel_refresh m b0 L n cm Ea).
      destruct (sel n (cn_incar cm) (Some b0)) as [ch|]; cbn [option_map]; [right; eauto|left; auto].
  Qed.
End MergerSteps.

Lemma ss_is_empty_inv b :
  ss_is_empty b = true ->
  ss_segs b = [] /\ forall n c, assoc n (ss_kids b) = Some c -> ss_is_empty c = true.
Proof.
  destruct b as [a i ll kids]. cbn [ss_is_empty ss_segs ss_kids].
  intros H. apply andb_true_iff in H. destruct H as [H1 H2]. split.
  - apply Nat.eqb_eq in H1. now destruct a.
  - clear H1. induction kids as [|[n' c'] r IH]; intros n c; cbn [assoc]; [discriminate|].
    apply andb_true_iff in H2. destruct H2 as [H2 H3].
    destruct (beqb n' n); [intros [= <-]; auto|]. apply IH; auto.
Qed.

Definition hered_empty (B : option sstack) : Prop :=
  match B with Some b => ss_is_empty b = true | None => True end.
Definition hered_mf (B : option sstack) : Prop :=
  match B with Some b => ss_has_merge b = false | None => True end.

Lemma hered_empty_sel B n i : hered_empty B -> hered_empty (sel n i B).
Proof.
  destruct B as [b|]; [|intros _; exact I]. intros He.
  destruct (sel n i (Some b)) as [c|] eqn:Es; [|exact I].
  apply sel_some in Es. destruct Es as [_ Es].
  apply ss_is_empty_inv in He. destruct He as [_ He]. eapply He; eauto.
Qed.
Lemma hered_mf_sel B n i : hered_mf B -> hered_mf (sel n i B).
Proof.
  destruct B as [b|]; [|intros _; exact I]. intros He.
  destruct (sel n i (Some b)) as [c|] eqn:Es; [|exact I].
  apply sel_some in Es. destruct Es as [_ Es].
  apply ss_has_merge_inv in He. destruct He as [_ He]. eapply He; eauto.
Qed.
Lemma hered_empty_segs B : hered_empty B -> osegs B = [].
Proof. destruct B as [b|]; auto. intros He. apply ss_is_empty_inv in He. apply He. Qed.
Lemma hered_mf_segs B : hered_mf B -> mf_stack (osegs B).
Proof.
  destruct B as [b|]; [|intros _ s []]. intros He. apply ss_has_merge_inv in He.
  apply mf_stack_existsb. apply He.
Qed.

Lemma kids_changed_inv f s :
  kids_changed f s = false ->
  forall n cf, assoc n (fn_kids f) = Some cf ->
               exists cs, assoc n (ss_kids s) = Some cs /\ ss_incar cs = fn_incar cf /\
                          kids_changed cf cs = false.
Proof.
  destruct f as [a i fkids]. cbn [kids_changed fn_kids].
  induction fkids as [|[n' cf'] r IH]; intros H n cf; cbn [assoc]; [discriminate|].
  destruct (assoc n' (ss_kids s)) as [cs|] eqn:Es; [|discriminate].
  apply orb_false_iff in H. destruct H as [H Hr].
  apply orb_false_iff in H. destruct H as [Hi Hc].
  destruct (beqb n' n) eqn:En.
  - apply beqb_true in En. subst n'. intros [= <-]. exists cs. repeat split; auto.
    apply negb_false_iff in Hi. now apply N.eqb_eq in Hi.
  - apply IH; auto.
Qed.

Section Publish.
  Variable fm : bytes -> value -> bytes -> value.
  Notation sget := (sget fm).
  Notation fn_get := (fn_get fm).
  Notation NodeInv := (NodeInv fm).
  Notation NodeLocal := (NodeLocal fm).

  Definition fnames (o : option fnode) : list cname :=
    match o with Some f => map fst (fn_kids f) | None => [] end.

  (* the new lower level reads, node by node, as the handed-down stack over the
     old lower level *)
  Inductive PubRel : option sstack -> option fnode -> option fnode -> Prop :=
  | PR_none : PubRel None None None
  | PR_some b L L' :
      (forall k, fn_get L' k = sget (ss_segs b) (fn_get L) k) ->
      (forall n i, sel n i (Some b) = None -> fsel n i L' = None) ->
      (forall n i c, sel n i (Some b) = Some c -> PubRel (Some c) (fsel n i L) (fsel n i L')) ->
      (NoDup (map fst (ss_kids b)) -> NoDup (fnames L) -> NoDup (fnames L')) ->
      PubRel (Some b) L L'.

  Lemma pubrel_append b : forall L, PubRel (Some b) L (Some (append_footer L b)).
  Proof.
    induction b as [a i ll kids IH] using sstack_ind'. intros L.
    constructor.
    - intros k. cbn [Tree.fn_get]. apply append_footer_view.
    - intros n j H. now rewrite fsel_append_footer, H.
    - intros n j c H. rewrite fsel_append_footer, H. cbn [option_map].
      apply sel_some in H. destruct H as [_ H]. cbn [okids ss_kids] in H.
      apply assoc_some_in in H. eapply IH; eauto.
    - intros Hb _. cbn [fnames]. now rewrite append_footer_kids_eq, names_map_kids.
  Qed.

  Lemma pubrel_compact b : forall sp incl L,
      incl = negb (Nat.eqb sp 0) \/ sp = 0 ->
      PubRel (Some b) L (Some (compact_node fm sp incl L b)).
  Proof.
    induction b as [a i ll kids IH] using sstack_ind'. intros sp incl L Hsp.
    constructor.
    - intros k. cbn [Tree.fn_get]. now apply compact_node_view_gen.
    - intros n j H. now rewrite fsel_compact_node, H.
    - intros n j c H. rewrite fsel_compact_node, H. cbn [option_map].
      apply sel_some in H. destruct H as [_ H]. cbn [okids ss_kids] in H.
      apply assoc_some_in in H. eapply IH; eauto.
    - intros Hb _. cbn [fnames]. now rewrite compact_node_kids_eq, names_map_kids.
  Qed.

  Lemma pubrel_view B L L' : PubRel B L L' -> forall k, fn_get L' k = sget (osegs B) (fn_get L) k.
  Proof. inversion 1; subst; auto. Qed.

  Lemma publish_inv lr w cap m T M B C L r :
    NodeInv lr w cap m T M B C L r ->
    forall L' (keep : bool),
      PubRel B L L' -> (keep = true -> hered_mf B) ->
      NodeInv lr w cap m T M None (if keep then B else None) L' r.
  Proof.
    induction 1 as [w cap m T M B C L r HL Hk IH]. intros L' keep HP Hkeep.
    pose proof (pubrel_view HP) as Hp.
    assert (Hsel : forall n cm, assoc n (cn_kids m) = Some cm ->
                     PubRel (sel n (cn_incar cm) B) (fsel n (cn_incar cm) L) (fsel n (cn_incar cm) L')).
    { intros n cm Ea. inversion HP as [|b L0 L0' _ Hnone Hsome _]; subst; [constructor|].
      destruct (sel n (cn_incar cm) (Some b)) as [c|] eqn:Es; [eapply Hsome; eauto|].
      rewrite (Hnone _ _ Es).
      destruct (fsel n (cn_incar cm) L) eqn:Ef; [|constructor].
      exfalso. apply (nl_pa HL) with (n := n) (cm := cm); auto; congruence. }
    assert (Hnone' : forall n i, sel n i B = None -> fsel n i L = None -> fsel n i L' = None).
    { intros n i H1 H2. inversion HP as [|b L0 L0' _ Hnone Hsome _]; subst; auto. }
    constructor.
    - destruct HL as [Hv Hc Hcap Hbll Hnd' Hnm Hkb Hb Hpa Hpb Hno Hme].
      constructor; auto; try discriminate.
      + intros k. rewrite <- (Hv k). cbn [osegs]. rewrite app_nil_r.
        rewrite (app_assoc (osegs T)). rewrite (sget_app fm (osegs T ++ osegs M) (osegs B)).
        apply sget_ext. apply Hp.
      + intros k. destruct keep; [|reflexivity].
        rewrite (sget_ext fm (osegs B) (fn_get L') (sget (osegs B) (fn_get L)) k (Hp k)).
        rewrite Hp. apply sget_idem_mf. apply hered_mf_segs; auto.
      + intros K ms EK EM k. rewrite (Hcap K ms EK EM k). cbn [osegs]. symmetry. apply Hp.
      + intros n i Hi. destruct (Hb n i Hi) as (H1 & H2 & H3 & H4). repeat split; auto.
        destruct keep; auto.
      + intros HM n cm Ea [Hor|Hor]; [exfalso; apply Hor; reflexivity|].
        apply Hpb; auto.
        destruct (sel n (cn_incar cm) B) eqn:Es; [left; discriminate|].
        destruct (fsel n (cn_incar cm) L) eqn:Ef; [right; discriminate|].
        exfalso. apply Hor. apply Hnone'; auto.
      + intros Hlr. destruct (Hno Hlr) as (-> & _ & ->).
        inversion HP; subst. destruct keep; auto.
    - intros n cm cr Ea Er. specialize (IH n cm cr Ea Er (fsel n (cn_incar cm) L') keep).
      assert (E : (if keep then sel n (cn_incar cm) B else None)
                  = sel n (cn_incar cm) (if keep then B else None)) by (destruct keep; auto).
      rewrite <- E. apply IH; auto.
      intros Hkp. apply hered_mf_sel; auto.
  Qed.

  Lemma tree_persist_cases ch b f f' :
    tree_persist fm ch b f = Some f' ->
    (f' = f /\ ss_is_empty b = true /\ kids_changed f b = false) \/
    f' = append_footer (Some f) b \/
    exists sp, f' = compact_node fm sp (negb (Nat.eqb sp 0)) (Some f) b.
  Proof.
    destruct ch as [| |sp]; cbn [tree_persist]; unfold nothing_to_persist.
    - destruct (ss_is_empty b); [|discriminate]. destruct (kids_changed f b); [discriminate|].
      intros [= <-]. auto.
    - destruct (ss_is_empty b && negb (kids_changed f b)); [discriminate|]. intros [= <-]. auto.
    - destruct (Nat.leb sp (length (fn_segs f))); [|discriminate].
      destruct (ss_is_empty b && Nat.leb (length (fn_segs f)) 1); [discriminate|].
      intros [= <-]. eauto.
  Qed.

  Lemma pubrel_noop b : forall L,
      ss_is_empty b = true -> (forall f, L = Some f -> kids_changed f b = false) ->
      PubRel (Some b) L L.
  Proof.
    induction b as [a i ll kids IH] using sstack_ind'. intros L He Hk.
    destruct (ss_is_empty_inv _ He) as [Hs Hek]. cbn [ss_segs ss_kids] in *.
    constructor.
    - intros k. cbn [ss_segs]. now rewrite Hs.
    - intros n j Hn. destruct (fsel n j L) as [y|] eqn:Ef; [|reflexivity]. exfalso.
      destruct L as [f|]; [|discriminate]. apply fsel_inv in Ef. destruct Ef as [Ey Hj].
      destruct (kids_changed_inv _ _ (Hk f eq_refl) n Ey) as (cs & Ec & Hi & _).
      cbn [sel] in Hn. rewrite Ec, Hi, Hj, N.eqb_refl in Hn. discriminate.
    - intros n j c Hc. apply sel_some in Hc. destruct Hc as [_ Ec]. cbn [okids ss_kids] in Ec.
      apply (IH n c (assoc_some_in _ _ Ec)); [eauto|].
      intros y Ef. destruct L as [f|]; [|discriminate]. apply fsel_inv in Ef. destruct Ef as [Ey _].
      destruct (kids_changed_inv _ _ (Hk f eq_refl) n Ey) as (cs & Ec' & _ & Hkc).
      cbn [ss_kids] in Ec'. congruence.
    - auto.
  Qed.

  Lemma persist_pubrel ch b f f' :
    tree_persist fm ch b f = Some f' -> PubRel (Some b) (Some f) (Some f').
  Proof.
    intros H. destruct (tree_persist_cases _ _ _ H) as [(-> & He & Hk)|[->|(sp & ->)]].
    - apply pubrel_noop; [exact He|]. now intros f0 [= <-].
    - apply pubrel_append.
    - apply pubrel_compact. now left.
  Qed.

  (* what a persistence round turns a node invariant into *)
  Lemma persist_inv lr w cap m T M b C f r ch f' (keep : bool) :
    NodeInv lr w cap m T M (Some b) C (Some f) r ->
    tree_persist fm ch b f = Some f' ->
    (keep = true -> ss_has_merge b = false) ->
    NodeInv lr w cap m T M None (if keep then Some b else None) (Some f') r.
  Proof. intros HN Etp Hkeep. exact (publish_inv HN (persist_pubrel _ _ _ Etp) Hkeep). Qed.

  Lemma persist_drop lr w cap m T M b C f r ch f' :
    NodeInv lr w cap m T M (Some b) C (Some f) r -> tree_persist fm ch b f = Some f' ->
    NodeInv lr w cap m T M None None (Some f') r.
  Proof. intros HN Etp. apply (persist_inv ch (keep := false) HN Etp). discriminate. Qed.

  (* with nothing dirty only the lower level is left *)
  Lemma drain_inv lr w cap m T M B C L r :
    NodeInv lr w cap m T M B C L r -> lr = true ->
    hered_empty T -> hered_empty M -> hered_empty B ->
    NodeInv lr false None m None None None None L r.
  Proof.
    induction 1 as [w cap m T M B C L r HL Hk IH]. intros Hlr HT HM HB.
    constructor.
    - destruct HL as [Hv Hc Hcap Hbll Hnd' Hnm Hkb Hb Hpa Hpb Hno Hme].
      constructor; auto; try discriminate; try congruence.
      + intros k. rewrite <- (Hv k).
        now rewrite (hered_empty_segs _ HT), (hered_empty_segs _ HM), (hered_empty_segs _ HB).
      + intros n i Hi. destruct (Hb n i Hi) as (H1 & H2 & H3 & H4). auto.
    - intros n cm cr Ea Er. apply (IH n cm cr Ea Er); auto using hered_empty_sel.
  Qed.
End Publish.

Definition batch_hyp (b : tbatch) : Prop := tb_ok b = true /\ tb_distinct b = true.

Lemma tb_ok_inv ops bkids :
  tb_ok (TB ops bkids) = true ->
  NoDup (keys ops) /\ forall n cb, In (n, Some cb) bkids -> tb_ok cb = true.
Proof.
  cbn [tb_ok]. intros H. apply andb_true_iff in H. destruct H as [H1 H2].
  split; [now apply uniq_keys_NoDup|].
  induction bkids as [|[n' o] r IH]; intros n cb Hin; [destruct Hin|].
  destruct o as [c|].
  - apply andb_true_iff in H2. destruct H2 as [H2 H3].
    destruct Hin as [E|Hin]; [congruence|eauto].
  - destruct Hin as [E|Hin]; [discriminate|eauto].
Qed.

Lemma tb_distinct_inv ops bkids :
  tb_distinct (TB ops bkids) = true ->
  NoDup (map fst bkids) /\ forall n cb, In (n, Some cb) bkids -> tb_distinct cb = true.
Proof.
  cbn [tb_distinct]. intros H. apply andb_true_iff in H. destruct H as [H1 H2].
  split; [now apply uniq_keys_NoDup|].
  induction bkids as [|[n' o] r IH]; intros n cb Hin; [destruct Hin|].
  simpl in H1. apply andb_true_iff in H1. destruct H1 as [_ H1].
  destruct o as [c|].
  - apply andb_true_iff in H2. destruct H2 as [H2 H3].
    destruct Hin as [E|Hin]; [congruence|eauto].
  - destruct Hin as [E|Hin]; [discriminate|eauto].
Qed.

Lemma batch_hyp_inv ops bkids :
  batch_hyp (TB ops bkids) ->
  NoDup (keys ops) /\ NoDup (map fst bkids) /\
  forall n cb, In (n, Some cb) bkids -> batch_hyp cb.
Proof.
  intros (H1 & H2).
  apply tb_ok_inv in H1. destruct H1 as [H1 H1'].
  apply tb_distinct_inv in H2. destruct H2 as [H2 H2'].
  repeat split; eauto.
Qed.

Lemma build_top_unfold' m ops bkids T :
  build_top m (TB ops bkids) T =
  let '(hi, mkids, rvkids) := bt_go build_top (okids T) bkids (cn_highest m, cn_kids m, []) in
  (CN (cn_incar m) hi mkids,
   SS (batch_segs ops ++ osegs T) (cn_incar m) None (bt_cp mkids (okids T) rvkids)).
Proof. reflexivity. Qed.

Lemma build_top_incar m b T :
  cn_incar (fst (build_top m b T)) = cn_incar m /\ ss_incar (snd (build_top m b T)) = cn_incar m.
Proof.
  destruct b as [ops bkids]. rewrite build_top_unfold'.
  destruct (bt_go build_top (okids T) bkids (cn_highest m, cn_kids m, [])) as [[hi mk] rv].
  split; reflexivity.
Qed.

Lemma sel_top m T n cm :
  TopOkO m T -> assoc n (cn_kids m) = Some cm -> sel n (cn_incar cm) T = assoc n (okids T).
Proof.
  intros Ht Ea. destruct T as [t|]; [|reflexivity]. cbn [sel okids].
  destruct (assoc n (ss_kids t)) as [c|] eqn:E; auto.
  destruct (SLive_kid n (top_live (Ht t eq_refl)) E) as (cm' & Ea' & Hc & _).
  assert (cm' = cm) by congruence. subst cm'. now rewrite Hc, N.eqb_refl.
Qed.

Lemma top_none m T n : TopOkO m T -> assoc n (cn_kids m) = None -> assoc n (okids T) = None.
Proof.
  intros Ht Ea. destruct T as [t|]; [|reflexivity]. cbn [okids].
  destruct (assoc n (ss_kids t)) as [c|] eqn:E; auto.
  destruct (SLive_kid n (top_live (Ht t eq_refl)) E) as (cm' & Ea' & _). congruence.
Qed.

Lemma kid_src_top m T hi' n child :
  TopOkO m T -> kid_src (cn_kids m) (cn_highest m) hi' n child -> TopOkO child (assoc n (okids T)).
Proof.
  intros HT [c Hch|f Hch _] t Et.
  - destruct T as [t0|]; [|discriminate].
    destruct (SLive_kid n (top_live (HT t0 eq_refl)) Et) as (cm & E1 & E2). congruence.
  - rewrite (top_none n HT Hch) in Et. discriminate.
Qed.

Lemma build_top_spec m ops bkids T :
  NoDup (map fst bkids) -> TopOkO m T ->
  exists hi' mk' tk',
    build_top m (TB ops bkids) T =
    (CN (cn_incar m) hi' mk', SS (batch_segs ops ++ osegs T) (cn_incar m) None tk') /\
    (cn_highest m <= hi')%N /\
    (NoDup (map fst (cn_kids m)) -> NoDup (map fst mk')) /\ NoDup (map fst tk') /\
    forall n,
      match assoc n bkids with
      | None => assoc n mk' = assoc n (cn_kids m) /\ assoc n tk' = assoc n (okids T)
      | Some None => assoc n mk' = None /\ assoc n tk' = None
      | Some (Some cb) =>
          exists child, kid_src (cn_kids m) (cn_highest m) hi' n child /\
                        assoc n mk' = Some (fst (build_top child cb (assoc n (okids T)))) /\
                        assoc n tk' = Some (snd (build_top child cb (assoc n (okids T))))
      end.
Proof.
  intros Hnd HT. rewrite build_top_unfold'.
  destruct (bt_go build_top (okids T) bkids (cn_highest m, cn_kids m, [])) as [[hi' mk'] rv] eqn:Ego.
  destruct (bt_go_spec build_top (okids T) bkids Hnd _ _ _ Ego) as (Hhi & Hmknd & Hrvnd & Hspec).
  specialize (Hrvnd (NoDup_nil _)).
  exists hi', mk', (bt_cp mk' (okids T) rv).
  split; [reflexivity|]. split; [exact Hhi|]. split; [exact Hmknd|].
  split; [now apply bt_cp_nodup|].
  assert (HTnd : NoDup (map fst (okids T))).
  { destruct T as [t|]; [|constructor]. destruct (HT t eq_refl) as [_ Hl]. now inversion Hl. }
  intros n. rewrite (bt_cp_assoc _ _ n HTnd). specialize (Hspec n). cbn [assoc] in Hspec.
  destruct (assoc n bkids) as [[cb|]|].
  - destruct Hspec as (child & Hch & H1 & H2). exists child. rewrite H2. auto.
  - destruct Hspec as [H1 H2]. rewrite H1, H2. auto.
  - destruct Hspec as [H1 H2]. rewrite H1, H2. split; [reflexivity|].
    destruct (assoc n (cn_kids m)) as [cm|] eqn:Ea.
    + destruct (assoc n (okids T)) as [c|] eqn:Ec; [|reflexivity].
      pose proof (kid_src_top HT (KS_old _ _ hi' n Ea) Ec) as Hc.
      now rewrite (top_incar Hc), N.eqb_refl, (prune_id Hc).
    + now rewrite (top_none n HT Ea).
Qed.

Section BatchMain.
  Variable fm : bytes -> value -> bytes -> value.
  Notation sget := (sget fm).
  Notation fn_get := (fn_get fm).
  Notation NodeInv := (NodeInv fm).
  Notation NodeLocal := (NodeLocal fm).

  Lemma NodeInv_empty lr w cap f :
    NodeInv lr w cap (CN f f []) None None None None None (RT [] []).
  Proof.
    constructor.
    - constructor; cbn; auto; try tauto; try (intros; discriminate).
      constructor.
    - intros; discriminate.
  Qed.

  Lemma rt_get_snoc r ops k (kids : list (cname * rtree)) :
    rt_get fm (RT (rt_hist r ++ [ops]) kids) k =
    match find ops k with Some o => apply_op fm k (rt_get fm r k) o | None => rt_get fm r k end.
  Proof. unfold rt_get. cbn [rt_hist]. apply ref_from_snoc. Qed.

  Lemma sget_batch_segs ops st below k :
    NoDup (keys ops) ->
    sget (batch_segs ops ++ st) below k =
    match find ops k with Some o => apply_op fm k (sget st below k) o | None => sget st below k end.
  Proof.
    intros H. destruct ops as [|e r]; [reflexivity|].
    cbn [batch_segs app Stack.sget]. now rewrite find_sort_seg by auto.
  Qed.

  Lemma build_top_live b : forall m T,
      tb_distinct b = true -> TopOkO m T -> TopOk (fst (build_top m b T)) (snd (build_top m b T)).
  Proof.
    induction b as [ops bkids IH] using tbatch_ind'. intros m T Hd HT.
    destruct (tb_distinct_inv _ _ Hd) as [Hnd Hkd].
    destruct (build_top_spec ops bkids Hnd HT) as (hi' & mk' & tk' & -> & _ & _ & Htnd & Hspec).
    cbn [fst snd].
    assert (Hk : forall n c, assoc n tk' = Some c -> exists cm, assoc n mk' = Some cm /\ TopOk cm c).
    { intros n c Ec. specialize (Hspec n). destruct (assoc n bkids) as [[cb|]|] eqn:Eb.
      - destruct Hspec as (child & Hsrc & H1 & H2). rewrite H2 in Ec. injection Ec as <-.
        apply assoc_some_in in Eb. eexists. split; [exact H1|].
        apply (IH n cb Eb); [exact (Hkd n cb Eb)|exact (kid_src_top HT Hsrc)].
      - destruct Hspec as [_ H2]. congruence.
      - destruct Hspec as [H1 H2]. rewrite H2 in Ec. rewrite H1.
        destruct T as [t0|]; [|discriminate]. apply (SLive_kid n (top_live (HT t0 eq_refl)) Ec). }
    split; [reflexivity|]. constructor; cbn [ss_kids cn_kids]; auto.
    - intros n c Ec. destruct (Hk n c Ec) as (cm & -> & _). discriminate.
    - intros n c cm Ec Ea. destruct (Hk n c Ec) as (cm0 & E0 & H0 & _). congruence.
    - intros n c cm Ec Ea. destruct (Hk n c Ec) as (cm0 & E0 & _ & H0). congruence.
  Qed.

  (* the bookkeeping node a child batch is executed on satisfies the invariant
     with the sections selected by its incarnation: an existing child does as
     a child, a fresh one because no section holds anything for a number above
     the highest one given out *)
  Lemma kid_src_inv lr w cap m T M B C L r hi' n child :
    NodeInv lr w cap m T M B C L r -> TopOkO m T -> (cn_highest m <= hi')%N ->
    kid_src (cn_kids m) (cn_highest m) hi' n child ->
    (cn_incar child <= hi')%N /\
    (B <> None -> fsel n (cn_incar child) L <> None -> sel n (cn_incar child) B <> None) /\
    (M <> None -> sel n (cn_incar child) B <> None \/ fsel n (cn_incar child) L <> None ->
     sel n (cn_incar child) M <> None) /\
    NodeInv lr w (option_map (sel n (cn_incar child)) cap) child (assoc n (okids T))
            (sel n (cn_incar child) M) (sel n (cn_incar child) B) (sel n (cn_incar child) C)
            (fsel n (cn_incar child) L)
            (match assoc n (rt_kids r) with Some x => x | None => RT [] [] end).
  Proof.
    intros HN HT Hhi [c Ea|f Ea Hf]; pose proof (NodeInv_local HN) as HL.
    - split; [pose proof (nl_kbound HL n Ea); lia|].
      split; [intros HB; now apply (nl_pa HL)|]. split; [intros HM; now apply (nl_pb HL)|].
      destruct (assoc n (rt_kids r)) as [cr|] eqn:Er; [|apply (nl_names HL) in Er; congruence].
      rewrite <- (sel_top n HT Ea). apply (NodeInv_kid n HN Ea Er).
    - cbn [cn_incar]. destruct (nl_bound HL n (i := f)) as (H1 & H2 & H3 & H4); [lia|].
      split; [lia|]. split; [congruence|]. split; [intros _ [H|H]; congruence|].
      assert (assoc n (rt_kids r) = None) as -> by (now apply (nl_names HL)).
      rewrite (top_none n HT Ea), H1, H2, H3, H4. apply NodeInv_empty.
  Qed.

  Lemma batch_inv b : forall lr w cap m T M B C L r,
      batch_hyp b -> NodeInv lr w cap m T M B C L r -> TopOkO m T ->
      NodeInv lr w cap (fst (build_top m b T)) (Some (snd (build_top m b T))) M B C L (rt_apply r b).
  Proof.
    induction b as [ops bkids IH] using tbatch_ind'. intros lr w cap m T M B C L r Hb HN HT.
    destruct (batch_hyp_inv Hb) as (Hops & Hnd & Hkids).
    destruct (NodeInv_local HN) as [Hv Hc Hcap Hbll Hndm Hnm Hkb Hbd Hpa Hpb Hno Hme].
    destruct (build_top_spec ops bkids Hnd HT) as (hi' & mk' & tk' & -> & Hhi & Hmknd & _ & Hspec).
    rewrite rt_apply_unfold. cbn [fst snd].
    pose proof (ra_go_spec rt_apply bkids Hnd (rt_kids r)) as Hra.
    set (rk' := ra_go rt_apply bkids (rt_kids r)) in *.
    set (t' := SS (batch_segs ops ++ osegs T) (cn_incar m) None tk').
    (* a child of the new bookkeeping node is an old child the batch does not
       mention, or what the batch built from an old or a fresh child *)
    assert (Hkid : forall n cm', assoc n mk' = Some cm' ->
      (assoc n (cn_kids m) = Some cm' /\ sel n (cn_incar cm') (Some t') = sel n (cn_incar cm') T /\
       assoc n rk' = assoc n (rt_kids r)) \/
      (exists cb child, In (n, Some cb) bkids /\ kid_src (cn_kids m) (cn_highest m) hi' n child /\
         cn_incar cm' = cn_incar child /\ cm' = fst (build_top child cb (assoc n (okids T))) /\
         sel n (cn_incar cm') (Some t') = Some (snd (build_top child cb (assoc n (okids T)))) /\
         assoc n rk' = Some (rt_apply (match assoc n (rt_kids r) with Some x => x | None => RT [] [] end) cb))).
    { intros n cm' Ea. specialize (Hspec n). specialize (Hra n).
      destruct (assoc n bkids) as [[cb|]|] eqn:Eb.
      - right. destruct Hspec as (child & Hsrc & H1 & H2). rewrite H1 in Ea. injection Ea as <-.
        destruct (build_top_incar child cb (assoc n (okids T))) as [Hi1 Hi2].
        exists cb, child. split; [now apply assoc_some_in|]. repeat (split; auto).
        cbn [sel t' ss_kids]. now rewrite H2, Hi2, Hi1, N.eqb_refl.
      - destruct Hspec as [H1 _]. congruence.
      - left. destruct Hspec as [H1 H2]. rewrite H1 in Ea. repeat (split; auto).
        cbn [sel t' ss_kids]. rewrite H2. destruct T; reflexivity. }
    constructor.
    - constructor; cbn [cn_kids cn_highest rt_kids]; auto.
      + intros k. cbn [osegs t' ss_segs].
        rewrite rt_get_snoc, <- app_assoc, sget_batch_segs by auto. now rewrite (Hv k).
      + intros n. specialize (Hspec n). specialize (Hra n).
        destruct (assoc n bkids) as [[cb|]|].
        * destruct Hspec as (child & _ & -> & _). rewrite Hra. split; discriminate.
        * destruct Hspec as [-> _]. rewrite Hra. tauto.
        * destruct Hspec as [-> _]. rewrite Hra. apply Hnm.
      + intros n cm' Ea.
        destruct (Hkid n cm' Ea) as [(Ea0 & _)|(cb & child & _ & Hs & -> & _)].
        * pose proof (Hkb n cm' Ea0). lia.
        * apply (kid_src_inv HN HT Hhi Hs).
      + intros n i Hi. apply Hbd. lia.
      + intros HB n cm' Ea.
        destruct (Hkid n cm' Ea) as [(Ea0 & _)|(cb & child & _ & Hs & -> & _)].
        * now apply Hpa.
        * now apply (kid_src_inv HN HT Hhi Hs).
      + intros HM n cm' Ea.
        destruct (Hkid n cm' Ea) as [(Ea0 & _)|(cb & child & _ & Hs & -> & _)].
        * now apply Hpb.
        * now apply (kid_src_inv HN HT Hhi Hs).
      + intros Hlr n cm' Ea.
        destruct (Hkid n cm' Ea) as [(Ea0 & -> & _)|(cb & child & _ & _ & _ & _ & -> & _)].
        * now apply Hme.
        * left. discriminate.
    - intros n cm' cr'. cbn [cn_kids rt_kids]. intros Ea Er.
      destruct (Hkid n cm' Ea) as [(Ea0 & -> & Er0)|(cb & child & Hin & Hs & Hi & -> & Ht' & Er0)].
      + rewrite Er0 in Er. apply (NodeInv_kid n HN Ea0 Er).
      + rewrite Er0 in Er. injection Er as <-. rewrite Ht', Hi.
        apply (IH n cb Hin); [exact (Hkids n cb Hin)|apply (kid_src_inv HN HT Hhi Hs)|].
        exact (kid_src_top HT Hs).
  Qed.
End BatchMain.

Lemma FLive_wf m f : FLive m f -> fn_wf f.
Proof.
  induction 1 as [m f Hnd F1 F2 F3 IH]. constructor; auto.
  intros n cf E. destruct (assoc n (cn_kids m)) as [cm|] eqn:Ea; [eauto|].
  exfalso. eapply F1; eauto.
Qed.

Lemma fn_wf_empty : fn_wf fnode_empty.
Proof. constructor; cbn; [constructor|intros; discriminate]. Qed.

Lemma SLive_lleq m s : SLive m s -> forall s', LlEq s s' -> SLive m s'.
Proof.
  induction 1 as [m s Hnd H1 H2 H3 IH]. intros s' Hl.
  inversion Hl as [s0 s0' _ _ Hn Hk]; subst.
  assert (Hex : forall n c', assoc n (ss_kids s') = Some c' ->
                             exists c, assoc n (ss_kids s) = Some c /\ LlEq c c').
  { intros n c' E. destruct (assoc n (ss_kids s)) as [c|] eqn:Es.
    - exists c. split; auto. eapply Hk; eauto.
    - apply (names_assoc_none _ _ n Hn) in Es. congruence. }
  constructor.
  - now rewrite <- Hn.
  - intros n c' E. destruct (Hex n c' E) as (c & Es & _). eauto.
  - intros n c' cm E Ea. destruct (Hex n c' E) as (c & Es & Hc).
    inversion Hc as [c0 c0' _ Hi _ _]; subst. rewrite <- Hi. eauto.
  - intros n c' cm E Ea. destruct (Hex n c' E) as (c & Es & Hc). eapply IH; eauto.
Qed.

Lemma assemble_names m secs ll lr :
  (forall n, In n (map fst (ss_kids (assemble m secs ll lr))) -> In n (map fst (cn_kids m))) /\
  (NoDup (map fst (cn_kids m)) -> NoDup (map fst (ss_kids (assemble m secs ll lr)))).
Proof.
  destruct m as [inc hi mkids]. cbn [assemble ss_kids cn_kids].
  induction mkids as [|[n' cm] r [IH1 IH2]].
  - split; auto.
  - cbn [map fst].
    match goal with |- context [if ?b then _ else _] => destruct b end.
    + cbn [map fst]. split.
      * intros n [->|H]; [left; auto|right; auto].
      * intros H. inversion H; subst. constructor; auto.
    + split.
      * intros n H. right; auto.
      * intros H. inversion H; subst. auto.
Qed.

Section LiveFacts.
  Variable fm : bytes -> value -> bytes -> value.
  Notation NodeInv := (NodeInv fm).

  Lemma SLive_merge m s : SLive m s -> forall t base, SLive m (merge_node fm t s base).
  Proof.
    induction 1 as [m s Hnd H1 H2 H3 IH]. intros t base.
    assert (Hex : forall n c', assoc n (ss_kids (merge_node fm t s base)) = Some c' ->
                   exists c t' b', assoc n (ss_kids s) = Some c /\ c' = merge_node fm t' c b').
    { intros n c' E. rewrite merge_node_kids_eq, assoc_map_kids in E.
      destruct (assoc n (ss_kids s)) as [c|]; [|discriminate]. injection E as <-. eauto. }
    constructor.
    - now rewrite merge_node_kids_eq, names_map_kids.
    - intros n c' E. destruct (Hex n c' E) as (c & t' & b' & Es & ->). eauto.
    - intros n c' cm E Ea. destruct (Hex n c' E) as (c & t' & b' & Es & ->).
      rewrite merge_node_incar. eauto.
    - intros n c' cm E Ea. destruct (Hex n c' E) as (c & t' & b' & Es & ->). eapply IH; eauto.
  Qed.

  Lemma FLive_pubrel m b :
    SLive m b -> forall L f', (forall f, L = Some f -> fn_wf f) ->
    PubRel fm (Some b) L (Some f') -> FLive m f'.
  Proof.
    induction 1 as [m s Hnd H1 H2 H3 IH]. intros L f' Hw HP.
    inversion HP as [|b0 L0 L0' _ Hnone Hsome Hnames]; subst.
    assert (Hex : forall n y, assoc n (fn_kids f') = Some y ->
               exists c, assoc n (ss_kids s) = Some c /\ ss_incar c = fn_incar y /\
                         PubRel fm (Some c) (fsel n (fn_incar y) L) (Some y)).
    { intros n y E.
      assert (Ef : fsel n (fn_incar y) (Some f') = Some y) by (cbn [fsel]; now rewrite E, N.eqb_refl).
      destruct (sel n (fn_incar y) (Some s)) as [c|] eqn:Es; [|rewrite (Hnone _ _ Es) in Ef; discriminate].
      exists c. destruct (sel_some _ _ _ _ Es) as [Hi Ec]. rewrite <- Ef. auto. }
    constructor.
    - apply (Hnames Hnd). destruct L as [f|]; [|constructor]. now destruct (Hw f eq_refl).
    - intros n y E. destruct (Hex n y E) as (c & Ec & _). eauto.
    - intros n y cm E Ea. destruct (Hex n y E) as (c & Ec & Hi & _). rewrite <- Hi. eauto.
    - intros n y cm E Ea. destruct (Hex n y E) as (c & Ec & Hi & HPc).
      apply (IH n c cm Ec Ea _ _) in HPc; auto.
      intros f Ef. destruct L as [f0|]; [|discriminate]. apply fsel_inv in Ef.
      destruct (Hw f0 eq_refl) as [f1 _ Hk]. apply (Hk n f (proj1 Ef)).
  Qed.

  Lemma FLive_persist m b f ch f' :
    SLive m b -> fn_wf f -> tree_persist fm ch b f = Some f' -> FLive m f'.
  Proof.
    intros Hs Hw Etp. apply (FLive_pubrel Hs (L := Some f)); [now intros f0 [= <-]|].
    exact (persist_pubrel _ _ _ _ Etp).
  Qed.

  Lemma SLive_assemble lr w cap m T M B C L r :
    NodeInv lr w cap m T M B C L r ->
    forall os L' lr', SLive m (assemble m (osecs os) L' lr').
  Proof.
    induction 1 as [w cap m T M B C L r HL Hk IH]. intros os L' lr'.
    pose proof (nl_nodup HL) as Hnd.
    pose proof (nl_names HL) as Hnm.
    assert (Hex : forall n c, assoc n (ss_kids (assemble m (osecs os) L' lr')) = Some c ->
                   exists cm os' L'', assoc n (cn_kids m) = Some cm /\
                                      c = assemble cm (osecs os') L'' lr').
    { intros n c E. rewrite assemble_kid in E by auto.
      destruct (assoc n (cn_kids m)) as [cm|]; [|discriminate].
      destruct (lr' || _); [|discriminate]. injection E as <-. eauto. }
    constructor.
    - now apply assemble_names.
    - intros n c E. destruct (Hex n c E) as (cm & os' & L'' & Ea & ->). congruence.
    - intros n c cm E Ea. destruct (Hex n c E) as (cm' & os' & L'' & Ea' & ->).
      rewrite assemble_incar. congruence.
    - intros n c cm E Ea. destruct (Hex n c E) as (cm' & os' & L'' & Ea' & ->).
      assert (cm' = cm) by congruence. subst cm'.
      destruct (assoc n (rt_kids r)) as [cr|] eqn:Er; [|apply Hnm in Er; congruence].
      eapply IH; eauto.
  Qed.

  (* a node without anything in memory or beneath it reads nothing *)
  Lemma all_none_empty lr w cap m T M B C L r :
    NodeInv lr w cap m T M B C L r -> T = None -> M = None -> B = None -> L = None ->
    rt_empty fm r.
  Proof.
    induction 1 as [w cap m T M B C L r HL Hk IH]. intros -> -> -> ->.
    constructor.
    - intros k. rewrite <- (nl_view HL k). reflexivity.
    - intros n cr Er.
      destruct (assoc n (cn_kids m)) as [cm|] eqn:Ea; [|apply (nl_names HL) in Ea; congruence].
      eapply IH; eauto.
  Qed.

  (* with nothing in memory a live footer reads, on its own, as the reference *)
  Lemma footer_alone lr w cap m T M B C L r :
    NodeInv lr w cap m T M B C L r -> T = None -> M = None -> B = None ->
    forall f, L = Some f -> FLive m f -> fn_reads_mod fm f r.
  Proof.
    induction 1 as [w cap m T M B C L r HL Hk IH]. intros -> -> -> f -> Hf.
    inversion Hf as [m0 f0 _ F1 F2 F3]; subst.
    pose proof (nl_names HL) as Hnm.
    constructor.
    - intros k. rewrite <- (nl_view HL k). reflexivity.
    - intros n cf E Er. apply Hnm in Er. eapply F1; eauto.
    - intros n cf cr E Er.
      destruct (assoc n (cn_kids m)) as [cm|] eqn:Ea; [|apply Hnm in Ea; congruence].
      apply (IH n cm cr Ea Er); auto.
      + cbn [fsel]. rewrite E, (F2 n cf cm E Ea), N.eqb_refl. reflexivity.
      + eapply F3; eauto.
    - intros n cr E Er.
      destruct (assoc n (cn_kids m)) as [cm|] eqn:Ea; [|apply Hnm in Ea; congruence].
      apply (all_none_empty (Hk n cm cr Ea Er)); auto.
      cbn [fsel]. now rewrite E.
  Qed.

  Lemma persisted_reads lr m b f r ch f' :
    NodeInv lr false None m None None (Some b) None (Some f) r -> SLive m b -> fn_wf f ->
    tree_persist fm ch b f = Some f' -> fn_reads_mod fm f' r /\ FLive m f'.
  Proof.
    intros HN Hl Hw Etp. pose proof (FLive_persist ch Hl Hw Etp) as Hf. split; [|exact Hf].
    pose proof (persist_drop ch HN Etp) as HN'.
    apply (footer_alone HN' eq_refl eq_refl eq_refl eq_refl Hf).
  Qed.
End LiveFacts.

Definition clabel_batches (l : clabel) : list tbatch :=
  match l with CBatch b => [b] | _ => [] end.

Lemma cbatches_cons l ls : cbatches (l :: ls) = clabel_batches l ++ cbatches ls.
Proof. destruct l; reflexivity. Qed.

Lemma cbatches_app ls1 ls2 : cbatches (ls1 ++ ls2) = cbatches ls1 ++ cbatches ls2.
Proof.
  induction ls1 as [|l q IH]; [reflexivity|].
  cbn [app]. rewrite !cbatches_cons, IH. now rewrite app_assoc.
Qed.

Lemma rt_run_app r0 bs1 bs2 : rt_run r0 (bs1 ++ bs2) = rt_run (rt_run r0 bs1) bs2.
Proof. unfold rt_run. apply fold_left_app. Qed.

Definition cap_of (mp : tmpc) : option (option sstack) :=
  match mp with TMIngested mb => Some mb | _ => None end.

(* the store is at a while the persister is idle and at b while a round is
   running (LowerLevelUpdate has written the new footer) *)
Definition store_idx (p : ppc) (a b : nat) : nat :=
  match p with PIdle => a | PUpdating => b end.

Ltac splits := repeat match goal with |- _ /\ _ => split end.

Section StateInv.
  Variable fm : bytes -> value -> bytes -> value.
  Notation NodeInv := (NodeInv fm).

  (* The state against the reference tree r of everything executed.  The flag
     "the root has a lower-level snapshot" (lr) is separate from the
     configuration: a reopened collection has one whatever has_ll says. *)
  Record SInv (c : cfg) (lr : bool) (r : rtree) (cs : cst) : Prop := {
    si_open : t_closed (c_t cs) = false;
    si_ll : has_some (t_ll (c_t cs)) = lr;
    si_lc : has_ll c = true -> lr = true;
    si_node : NodeInv lr true (cap_of (t_merger (c_t cs)))
                      (t_coll (c_t cs)) (t_top (c_t cs)) (t_mid (c_t cs))
                      (t_base (c_t cs)) (t_clean (c_t cs)) (t_ll (c_t cs)) r;
    si_top : forall t, t_top (c_t cs) = Some t -> TopOk (t_coll (c_t cs)) t;
    si_pers : match t_persister (c_t cs) with
              | PIdle => lr = true -> t_ll (c_t cs) = Some (c_store cs)
              | PUpdating =>
                  exists b f ch, t_base (c_t cs) = Some b /\ t_ll (c_t cs) = Some f /\
                                 tree_persist fm ch b f = Some (c_store cs) /\
                                 c_pend cs = Some (c_store cs)
              end;
    si_cached : forall sn, t_cached (c_t cs) = Some sn -> reads_as fm sn r;
    si_wf : fn_wf (c_store cs)
  }.

  (* The history ghost (a <= b <= d as in Prefix.v), over the reference tree
     continued from r0: the lower level holds the first a batches, base over it
     the first b, mid over base over it the first d - each read through the
     collection bookkeeping (names and incarnations) of the moment the section
     was cut off by the merger's ingest.  a0 and s0 are lower bounds for the
     prefixes held by the lower-level snapshot and by the store. *)
  Definition GInv (c : cfg) (lr : bool) (r0 : rtree) (bs : list tbatch) (cs : cst)
             (a0 s0 : nat) : Prop :=
    exists a b d ca cb cd,
      (a0 <= a /\ s0 <= store_idx (t_persister (c_t cs)) a b /\ a <= b <= d /\ d <= length bs) /\
      NodeInv lr false None ca None None None None (t_ll (c_t cs))
              (rt_run r0 (firstn a bs)) /\
      NodeInv lr false None cb None None (t_base (c_t cs)) None (t_ll (c_t cs))
              (rt_run r0 (firstn b bs)) /\
      NodeInv lr false (cap_of (t_merger (c_t cs))) cd None (t_mid (c_t cs))
              (t_base (c_t cs)) None (t_ll (c_t cs)) (rt_run r0 (firstn d bs)) /\
      FLiveO ca (t_ll (c_t cs)) /\ SLiveO cb (t_base (c_t cs)) /\ SLiveO cd (t_mid (c_t cs)) /\
      (t_top (c_t cs) = None -> d = length bs) /\
      (t_mid (c_t cs) = None -> b = d) /\
      (t_base (c_t cs) = None -> a = b).

  Record CInv c lr r0 bs cs a s : Prop := {
    ci_state : SInv c lr (rt_run r0 bs) cs;
    ci_ghost : GInv c lr r0 bs cs a s
  }.

  Lemma cinv_init c : CInv c (has_ll c) (RT [] []) [] (cinit c) 0 0.
  Proof.
    assert (HN : forall w, NodeInv (has_ll c) w None (CN 0 0 []) None None None None
                                   (if has_ll c then Some fnode_empty else None) (RT [] [])).
    { intros w. constructor; [|intros; discriminate].
      constructor; cbn; auto; try tauto; try (intros; discriminate).
      - intros k. destruct (has_ll c); reflexivity.
      - constructor.
      - intros n i _. repeat split; auto. destruct (has_ll c); reflexivity.
      - intros ->. auto. }
    split.
    - constructor; cbn; auto; try discriminate.
      + destruct (has_ll c); reflexivity.
      + intros H. now rewrite H.
      + apply fn_wf_empty.
    - exists 0, 0, 0, (CN 0 0 []), (CN 0 0 []), (CN 0 0 []). cbn.
      splits; auto.
      destruct (has_ll c); cbn; auto. constructor; cbn; try (intros; discriminate). constructor.
  Qed.

  Lemma ginv_same c lr r0 bs cs cs' a s :
    t_top (c_t cs') = t_top (c_t cs) ->
    t_mid (c_t cs') = t_mid (c_t cs) -> t_base (c_t cs') = t_base (c_t cs) ->
    t_ll (c_t cs') = t_ll (c_t cs) -> cap_of (t_merger (c_t cs')) = cap_of (t_merger (c_t cs)) ->
    (t_persister (c_t cs) = PUpdating -> t_persister (c_t cs') = PUpdating) ->
    GInv c lr r0 bs cs a s -> GInv c lr r0 bs cs' a s.
  Proof.
    intros E0 E1 E2 E3 E4 E5 (a1 & b & d & ca & cb & cd & Har & H).
    exists a1, b, d, ca, cb, cd. rewrite E0, E1, E2, E3, E4. split; [|exact H].
    destruct (t_persister (c_t cs)); [|now rewrite E5].
    destruct (t_persister (c_t cs')); cbn [store_idx] in *; lia.
  Qed.

  Lemma sinv_snapshot c lr r cs : SInv c lr r cs -> reads_as fm (t_mk_snapshot (c_t cs)) r.
  Proof.
    intros HI. unfold t_mk_snapshot, t_assemble. rewrite (si_ll HI).
    apply (assemble_reads_as (si_node HI)).
  Qed.

  Lemma sinv_cur_snapshot c lr r cs : SInv c lr r cs -> reads_as fm (t_cur_snapshot (c_t cs)) r.
  Proof.
    intros HI. unfold t_cur_snapshot.
    destruct (t_cached (c_t cs)) as [sn|] eqn:Eca; [apply (si_cached HI Eca)|].
    apply (sinv_snapshot HI).
  Qed.
End StateInv.

Section StepInv.
  Variable fm : bytes -> value -> bytes -> value.
  Variables (c : cfg) (lr : bool) (r0 : rtree).
  Notation NodeInv := (NodeInv fm).
  Notation CInv := (CInv fm c lr r0).
  Notation good := (fun b => tb_good b = true).

  Lemma batch_cinv bs cs a s b cs' :
    CInv bs cs a s -> tb_good b = true ->
    cstep fm c cs (CBatch b) = Some cs' -> CInv (bs ++ [b]) cs' a s.
  Proof.
    intros [[Ho Hll Hlc Hn Ht Hp Hc Hw] HG] Hg Hs.
    cbn [cstep] in Hs. unfold clift, tstep in Hs. rewrite Ho in Hs.
    destruct (tb_ok b && tb_nonempty b) eqn:G; [|discriminate].
    apply andb_true_iff in G. destruct G as [Gok _].
    pose proof (batch_inv (conj Gok Hg) Hn Ht) as HN. pose proof (build_top_live b Hg Ht) as HT.
    destruct (build_top (t_coll (c_t cs)) b (t_top (c_t cs))) as [coll' top'].
    injection Hs as <-. cbn [fst snd] in *. split.
    - rewrite rt_run_app. constructor; cbn; auto.
      + intros t [= <-]. exact HT.
      + discriminate.
    - destruct HG as (a1 & b1 & d & ca & cb & cd & Har & HA & HB & HD & LA & LB & LD & ET & EM & EB).
      exists a1, b1, d, ca, cb, cd. cbn.
      rewrite !firstn_app_le by lia. rewrite app_length.
      split; [lia|]. splits; auto. discriminate.
  Qed.

  Lemma ingest_cinv bs cs a s cs' :
    CInv bs cs a s -> cstep fm c cs CIngest = Some cs' -> CInv bs cs' a s.
  Proof.
    intros [[Ho Hll Hlc Hn Ht Hp Hc Hw] HG] Hs.
    cbn [cstep] in Hs. unfold clift, tstep in Hs. rewrite Ho in Hs.
    destruct (t_merger (c_t cs)) eqn:Em; try discriminate.
    injection Hs as <-.
    assert (HM : NodeInv lr true (Some (t_base (c_t cs))) (t_coll (c_t cs)) None
                         (Some (t_assemble (c_t cs) [t_top (c_t cs); t_mid (c_t cs)]))
                         (t_base (c_t cs)) (t_clean (c_t cs)) (t_ll (c_t cs)) (rt_run r0 bs)).
    { unfold t_assemble. rewrite Hll. apply (ingest_inv Hn eq_refl). left. reflexivity. }
    split.
    - constructor; cbn; auto; discriminate.
    - destruct HG as (a1 & b1 & d & ca & cb & cd & Har & HA & HB & HD & LA & LB & LD & ET & EM & EB).
      exists a1, b1, (length bs), ca, cb, (t_coll (c_t cs)). cbn.
      split; [lia|]. splits; auto; try discriminate.
      + rewrite firstn_all. apply (weaken_inv HM).
      + apply (SLive_assemble Hn).
  Qed.

  Lemma swap_node w mb m T ms B C L r t :
    NodeInv lr w (Some mb) m T (Some ms) B C L r ->
    NodeInv lr w None m T (Some (if ss_is_empty ms then ms else merge_node fm t ms mb)) B C L r.
  Proof.
    intros Hn. destruct (ss_is_empty ms); [apply (relax_inv Hn); auto|].
    apply (swap_inv Hn eq_refl). right. exists ms, t. auto.
  Qed.

  Lemma swap_cinv bs cs a s t cs' :
    CInv bs cs a s -> cstep fm c cs (CSwap t) = Some cs' -> CInv bs cs' a s.
  Proof.
    intros [[Ho Hll Hlc Hn Ht Hp Hc Hw] HG] Hs.
    cbn [cstep] in Hs. unfold clift, tstep in Hs. rewrite Ho in Hs.
    destruct (t_merger (c_t cs)) as [|mb|] eqn:Em; try discriminate.
    destruct (t_mid (c_t cs)) as [ms|] eqn:Emid; try discriminate.
    injection Hs as <-. cbn [cap_of] in Hn. split.
    - constructor; cbn; auto.
      + apply (swap_node t Hn).
      + destruct (ss_is_empty ms); [exact Hc|discriminate].
    - destruct HG as (a1 & b1 & d & ca & cb & cd & Har & HA & HB & HD & LA & LB & LD & ET & EM & EB).
      exists a1, b1, d, ca, cb, cd. cbn.
      rewrite Em, Emid in HD. cbn [cap_of] in HD. rewrite Emid in LD. cbn [SLiveO] in LD.
      split; [exact Har|]. splits; auto; try discriminate.
      + apply (swap_node t HD).
      + destruct (ss_is_empty ms); auto. now apply SLive_merge.
  Qed.

  Lemma handover_cinv bs cs a s cs' :
    CInv bs cs a s -> cstep fm c cs CHandover = Some cs' -> CInv bs cs' a s.
  Proof.
    intros [[Ho Hll Hlc Hn Ht Hp Hc Hw] HG] Hs.
    cbn [cstep] in Hs. unfold clift, tstep in Hs. rewrite Ho in Hs.
    destruct (t_merger (c_t cs)) as [|mb|] eqn:Em; try discriminate. cbn [cap_of] in Hn.
    destruct (t_base (c_t cs)) as [b|] eqn:Eb;
      [|destruct (t_mid (c_t cs)) as [ms|] eqn:Emid; [destruct (has_ll c) eqn:Ec|]].
    (* the hand-overs that move nothing *)
    1,3,4: (injection Hs as <-; split;
            [constructor; cbn; rewrite ?Ec; auto; discriminate
            |apply (ginv_same (cs := cs)); cbn; rewrite ?Em; auto]).
    injection Hs as <-.
    assert (lr = true) by auto. subst lr.
    destruct (t_ll (c_t cs)) as [f|] eqn:Ell; [|discriminate].
    pose proof (refresh_lleq ms (t_coll (c_t cs)) (Some f)) as Hq.
    split.
    - constructor; cbn; rewrite ?Ell; auto.
      + apply (@bll_upgrade fm true false); [|right; eauto].
        apply (handover_inv Hn eq_refl eq_refl). exact Hq.
      + destruct (t_persister (c_t cs)); auto.
        destruct Hp as (b' & f' & ch & H1 & _). discriminate.
    - destruct HG as (a1 & b1 & d & ca & cb & cd & Har & HA & HB & HD & LA & LB & LD & ET & EM & EB).
      rewrite Emid, Eb, Em, Ell in *. cbn [cap_of] in HD. cbn [SLiveO] in LD.
      exists a1, d, d, ca, cd, cd. cbn. rewrite ?Ell.
      split; [destruct (t_persister (c_t cs)); cbn [store_idx] in *; lia|].
      splits; auto; try discriminate.
      + apply (handover_inv HD eq_refl eq_refl). exact Hq.
      + apply (handover_inv HD eq_refl eq_refl). exact Hq.
      + apply (SLive_lleq LD Hq).
  Qed.

  Lemma pbegin_cinv bs cs a s ch cs' :
    CInv bs cs a s -> cstep fm c cs (CPBegin ch) = Some cs' -> CInv bs cs' a s.
  Proof.
    intros [[Ho Hll Hlc Hn Ht Hp Hc Hw] HG] Hs.
    cbn [cstep] in Hs. unfold tstep in Hs. rewrite Ho in Hs.
    destruct (t_persister (c_t cs)) eqn:Ep; try discriminate.
    destruct (t_base (c_t cs)) as [b|] eqn:Eb; try discriminate.
    destruct (has_ll c) eqn:Ec; try discriminate.
    unfold c_update in Hs. rewrite Eb in Hs.
    destruct (tree_persist fm ch b (c_store cs)) as [f'|] eqn:Et; [|discriminate].
    injection Hs as <-. split.
    - constructor; cbn; auto.
      + exists b, (c_store cs), ch. auto.
      + destruct HG as (a1 & b1 & d & ca & cb & cd & _ & _ & _ & _ & _ & LB & _).
        rewrite Eb in LB. apply (FLive_wf (FLive_persist fm ch LB Hw Et)).
    - apply (ginv_same (cs := cs)); cbn; auto.
  Qed.

  Lemma pbeginfail_cinv bs cs a s cs' :
    CInv bs cs a s -> cstep fm c cs CPBeginFail = Some cs' -> CInv bs cs' a s.
  Proof.
    intros [[Ho Hll Hlc Hn Ht Hp Hc Hw] HG] Hs.
    cbn [cstep] in Hs. unfold clift, tstep in Hs. rewrite Ho in Hs.
    destruct (t_persister (c_t cs)) eqn:Ep; try discriminate.
    destruct (t_base (c_t cs)) as [b|] eqn:Eb; try discriminate.
    destruct (has_ll c) eqn:Ec; try discriminate.
    cbn in Hs. injection Hs as <-. split.
    - constructor; cbn; rewrite ?Ep; auto.
    - apply (ginv_same (cs := cs)); cbn; rewrite ?Ep; auto.
  Qed.

  Lemma publish_cinv bs cs a s cs' :
    CInv bs cs a s -> cstep fm c cs CPPublish = Some cs' -> CInv bs cs' a s.
  Proof.
    intros [[Ho Hll Hlc Hn Ht Hp Hc Hw] HG] Hs.
    cbn [cstep] in Hs.
    destruct (c_pend cs) as [f'|] eqn:Epend; [|discriminate].
    unfold tstep in Hs. rewrite Ho in Hs.
    destruct (t_persister (c_t cs)) eqn:Ep; try discriminate.
    destruct (t_base (c_t cs)) as [b|] eqn:Eb; try discriminate.
    injection Hs as <-.
    destruct Hp as (b0 & f & ch & E1 & Ell & Etp & E2).
    injection E1 as <-. assert (f' = c_store cs) by congruence. subst f'.
    assert (Hl : lr = true) by (rewrite <- Hll, Ell; reflexivity).
    rewrite Ell in Hn. split.
    - constructor; cbn; auto.
      + apply (persist_inv ch Hn Etp).
        intros Hk. apply andb_true_iff in Hk. destruct Hk as [_ Hk]. now apply negb_true_iff in Hk.
      + discriminate.
    - destruct HG as (a1 & b1 & d & ca & cb & cd & Har & HA & HB & HD & LA & LB & LD & ET & EM & EB).
      rewrite Ell, Eb in *. rewrite Ep in Har. cbn [SLiveO FLiveO store_idx] in *.
      pose proof (persist_drop ch HB Etp) as HB'.
      pose proof (persist_drop ch HD Etp) as HD'.
      exists b1, b1, d, cb, cb, cd. cbn.
      split; [lia|]. splits; auto.
      apply (FLive_persist fm ch LB (FLive_wf LA) Etp).
  Qed.

  Lemma snap_cinv bs cs a s cs' :
    CInv bs cs a s -> cstep fm c cs CSnap = Some cs' -> CInv bs cs' a s.
  Proof.
    intros [HI HG] Hs. pose proof (sinv_cur_snapshot HI) as Hsn. destruct HI as [Ho Hll Hlc Hn Ht Hp Hc Hw].
    cbn [cstep] in Hs. unfold clift, tstep in Hs. rewrite Ho in Hs. injection Hs as <-. split.
    - constructor; cbn; auto. now intros sn [= <-].
    - apply (ginv_same (cs := cs)); cbn; auto.
  Qed.

  Theorem cstep_inv bs cs a s l cs' :
    CInv bs cs a s -> Forall good (clabel_batches l) ->
    cstep fm c cs l = Some cs' -> CInv (bs ++ clabel_batches l) cs' a s.
  Proof.
    intros HI Hg Hs. destruct l; cbn [clabel_batches]; rewrite ?app_nil_r.
    - inversion Hg; subst. eapply batch_cinv; eauto.
    - eapply ingest_cinv; eauto.
    - eapply swap_cinv; eauto.
    - eapply handover_cinv; eauto.
    - eapply pbegin_cinv; eauto.
    - eapply pbeginfail_cinv; eauto.
    - eapply publish_cinv; eauto.
    - eapply snap_cinv; eauto.
  Qed.

  Theorem crun_inv ls : forall bs cs a s cs',
    CInv bs cs a s -> Forall good (cbatches ls) ->
    crun fm c cs ls = Some cs' -> CInv (bs ++ cbatches ls) cs' a s.
  Proof.
    induction ls as [|l ls IH]; intros bs cs a s cs' HI Hg Hr; cbn [crun] in Hr.
    - injection Hr as <-. cbn. now rewrite app_nil_r.
    - destruct (cstep fm c cs l) as [cs1|] eqn:Es; [|discriminate].
      rewrite cbatches_cons in *. rewrite app_assoc.
      apply Forall_app in Hg. destruct Hg as [Hg1 Hg2].
      eapply IH; eauto. eapply cstep_inv; eauto.
  Qed.
End StepInv.

Section Consequences.
  Variable fm : bytes -> value -> bytes -> value.
  Notation NodeInv := (NodeInv fm).

  Lemma store_reads c R r0 bs cs a0 s0 :
    SInv fm c true R cs -> GInv fm c true r0 bs cs a0 s0 ->
    exists a s,
      a0 <= a /\ s0 <= s /\ a <= s /\ s <= length bs /\
      (forall l, t_ll (c_t cs) = Some l -> fn_reads_mod fm l (rt_run r0 (firstn a bs))) /\
      fn_reads_mod fm (c_store cs) (rt_run r0 (firstn s bs)) /\
      (caught_up cs -> s = length bs) /\
      GInv fm c true r0 bs cs a s.
  Proof.
    intros HI (a & b & d & ca & cb & cd & Har & HA & HB & HD & LA & LB & LD & ET & EM & EB).
    pose proof (si_pers HI) as Hp.
    assert (Hll : forall l, t_ll (c_t cs) = Some l -> fn_reads_mod fm l (rt_run r0 (firstn a bs))).
    { intros l El. rewrite El in HA, LA. apply (footer_alone HA eq_refl eq_refl eq_refl eq_refl LA). }
    assert (HG : GInv fm c true r0 bs cs a (store_idx (t_persister (c_t cs)) a b)).
    { exists a, b, d, ca, cb, cd. splits; auto; lia. }
    exists a, (store_idx (t_persister (c_t cs)) a b).
    destruct (t_persister (c_t cs)) eqn:Ep; cbn [store_idx] in *.
    - splits; auto; try lia.
      intros (E1 & E2 & E3 & _). rewrite (EB E3), (EM E2). auto.
    - destruct Hp as (b0 & f & ch & Eb & Ell & Etp & _). rewrite Eb, Ell in HB. rewrite Eb in LB.
      rewrite Ell in LA.
      splits; auto; try lia.
      + apply (persisted_reads ch HB LB (FLive_wf LA) Etp).
      + intros (_ & _ & _ & E4). congruence.
  Qed.
End Consequences.

Unset Implicit Arguments.

Section EndToEnd.
  Variable fm : bytes -> value -> bytes -> value.

  Lemma crun_init c ls cs :
    Forall (fun b => tb_good b = true) (cbatches ls) ->
    crun fm c (cinit c) ls = Some cs ->
    SInv fm c (has_ll c) (ref_tree (cbatches ls)) cs /\
    GInv fm c (has_ll c) (RT [] []) (cbatches ls) cs 0 0.
  Proof. intros Hg Hr. destruct (crun_inv ls (cinv_init fm c) Hg Hr) as [HI HG]. now split. Qed.

  (* Every batch has distinct child names per node (tb_good = tb_distinct; in
     the implementation the child batches of a batch are a Go map).  Then,
     whatever the merge operator and whatever the schedule of batches, merger
     rounds, persistence rounds (append, compaction at any splice point,
     no-op, failed) and snapshots, the current snapshot reads as the reference
     tree: the same value for every key and the same set of child names at the
     root and, recursively, in every child collection — a deleted child is
     gone, a re-created child is a fresh one that does not see its
     predecessor's persisted keys. *)
  Theorem tree_snapshot_reads_reference c ls cs :
    Forall (fun b => tb_good b = true) (cbatches ls) ->
    crun fm c (cinit c) ls = Some cs ->
    reads_as fm (t_cur_snapshot (c_t cs)) (ref_tree (cbatches ls)).
  Proof.
    intros Hg Hr. destruct (crun_init c ls cs Hg Hr) as [HI _].
    exact (sinv_cur_snapshot HI).
  Qed.

  (* a freshly assembled snapshot reads the same (the cache is never stale) *)
  Theorem tree_fresh_snapshot_reads_reference c ls cs :
    Forall (fun b => tb_good b = true) (cbatches ls) ->
    crun fm c (cinit c) ls = Some cs ->
    reads_as fm (t_mk_snapshot (c_t cs)) (ref_tree (cbatches ls)).
  Proof.
    intros Hg Hr. destruct (crun_init c ls cs Hg Hr) as [HI _].
    exact (sinv_snapshot HI).
  Qed.

  (* reads_as, path by path *)
  Lemma reads_as_at s r : reads_as fm s r -> forall p,
    match ss_at s p, rt_at r p with
    | Some s', Some r' =>
        (forall k, ss_get fm s' k = rt_get fm r' k) /\
        (forall n, In n (map fst (ss_kids s')) <-> In n (map fst (rt_kids r')))
    | None, None => True
    | _, _ => False
    end.
  Proof.
    intros H p. revert s r H. induction p as [|n q IH]; intros s r H.
    - cbn. inversion H; subst. auto.
    - cbn [ss_at rt_at]. inversion H as [s0 r0 Hg Hn Hk]; subst.
      pose proof (names_iff_assoc _ _ n (Hn n)) as Hn'.
      destruct (assoc n (ss_kids s)) as [cs0|] eqn:Es, (assoc n (rt_kids r)) as [cr|] eqn:Er.
      + apply IH. eapply Hk; eauto.
      + destruct Hn' as [_ Hn']. discriminate (Hn' eq_refl).
      + destruct Hn' as [Hn' _]. discriminate (Hn' eq_refl).
      + exact I.
  Qed.

  (* the statement at every path of child names: a child collection exists in
     the snapshot exactly when it exists in the reference; there every key
     reads the reference's value and the child names agree *)
  Theorem tree_snapshot_reads_reference_at_every_path c ls cs p :
    Forall (fun b => tb_good b = true) (cbatches ls) ->
    crun fm c (cinit c) ls = Some cs ->
    match ss_at (t_cur_snapshot (c_t cs)) p, rt_at (ref_tree (cbatches ls)) p with
    | Some s', Some r' =>
        (forall k, ss_get fm s' k = rt_get fm r' k) /\
        (forall n, In n (map fst (ss_kids s')) <-> In n (map fst (rt_kids r')))
    | None, None => True
    | _, _ => False
    end.
  Proof.
    intros Hg Hr. apply reads_as_at. eapply tree_snapshot_reads_reference; eauto.
  Qed.

  (* (3) The store holds a prefix of the history: at every moment its current
     footer tree — read on its own, without any collection — reads as the
     reference tree after the first a batches, for some a (fn_reads_mod): at
     the root and in every child footer every key reads the reference's value,
     every child footer belongs to a child collection of the reference, and a
     child collection of the reference that has no footer holds no key at any
     depth.  The last clause cannot be strengthened to "has a footer": a
     persistence round is a no-op when the handed-down stack holds no
     operation, also when it carries newly created, empty child collections
     (known finding F10b). *)
  Theorem tree_store_reads_prefix c ls cs :
    has_ll c = true ->
    Forall (fun b => tb_good b = true) (cbatches ls) ->
    crun fm c (cinit c) ls = Some cs ->
    exists a, a <= length (cbatches ls) /\
              fn_reads_mod fm (c_store cs) (ref_tree (firstn a (cbatches ls))).
  Proof.
    intros Hlc Hg Hr. destruct (crun_init c ls cs Hg Hr) as [HI HG]. rewrite Hlc in HI, HG.
    destruct (store_reads HI HG) as (_ & s & _ & _ & _ & Hs & _ & Hrd & _).
    exists s. split; [exact Hs|exact Hrd].
  Qed.

  (* ... and once everything has been handed down and persisted (no pending
     stack, no merger stack, no stack awaiting persistence, no persistence
     round running) the footer reads as the WHOLE reference tree. *)
  Theorem tree_drained_store_is_reference c ls cs :
    has_ll c = true ->
    Forall (fun b => tb_good b = true) (cbatches ls) ->
    crun fm c (cinit c) ls = Some cs ->
    t_persister (c_t cs) = PIdle ->
    t_top (c_t cs) = None -> t_mid (c_t cs) = None -> t_base (c_t cs) = None ->
    fn_reads_mod fm (c_store cs) (ref_tree (cbatches ls)).
  Proof.
    intros Hlc Hg Hr Hid ET EM EB. destruct (crun_init c ls cs Hg Hr) as [HI HG].
    rewrite Hlc in HI, HG.
    destruct (store_reads HI HG) as (_ & s & _ & _ & _ & _ & _ & Hrd & Hcu & _).
    rewrite (Hcu (conj ET (conj EM (conj EB Hid)))), firstn_all in Hrd. exact Hrd.
  Qed.

  (* The same two facts with the footer read THROUGH collection bookkeeping (a
     child footer counts only for a child collection of that name AND
     incarnation): here the child names agree exactly.  The second one holds
     under the weaker premise that the three dirty sections hold no operation
     (zero dirty gauges) — PARTIAL with respect to (3): for the footer on its
     own this weaker premise is not enough, because a batch that only deletes
     a child collection leaves every section without operations while the
     child's footer is still in the store (known finding F10b). *)
  Theorem tree_store_reads_prefix_through_collection c ls cs :
    has_ll c = true ->
    Forall (fun b => tb_good b = true) (cbatches ls) ->
    crun fm c (cinit c) ls = Some cs ->
    exists a ca, a <= length (cbatches ls) /\
                 reads_as fm (assemble ca [] (Some (c_store cs)) true)
                          (ref_tree (firstn a (cbatches ls))).
  Proof.
    intros Hlc Hg Hr. destruct (crun_init c ls cs Hg Hr) as [HI HG].
    destruct HG as (a & b & d & ca & cb & cd & Har & HA & HB & HD & _).
    pose proof (si_pers HI) as Hp. rewrite Hlc in *.
    destruct (t_persister (c_t cs)).
    - exists a, ca. split; [lia|]. rewrite (Hp eq_refl) in HA.
      apply (assemble_reads_as HA).
    - destruct Hp as (b0 & f & ch & Eb & Ell & Etp & _). rewrite Eb, Ell in HB.
      exists b, cb. split; [lia|].
      apply (assemble_reads_as (persist_drop ch HB Etp)).
  Qed.

  Theorem tree_zero_gauges_store_is_reference_partial c ls cs :
    has_ll c = true ->
    Forall (fun b => tb_good b = true) (cbatches ls) ->
    crun fm c (cinit c) ls = Some cs ->
    t_persister (c_t cs) = PIdle ->
    hered_empty (t_top (c_t cs)) -> hered_empty (t_mid (c_t cs)) -> hered_empty (t_base (c_t cs)) ->
    reads_as fm (assemble (t_coll (c_t cs)) [] (Some (c_store cs)) true) (ref_tree (cbatches ls)).
  Proof.
    intros Hlc Hg Hr Hid HT HM HB. destruct (crun_init c ls cs Hg Hr) as [HI _].
    pose proof (si_pers HI) as Hp. rewrite Hid in Hp.
    pose proof (si_node HI) as HN. rewrite Hlc, (Hp Hlc) in HN.
    apply (assemble_reads_as (drain_inv HN eq_refl HT HM HB)).
  Qed.

  (* the prefix invariant a <= b <= d of Prefix.v, for trees: read through the
     bookkeeping of the moment each section was cut off, the lower level holds
     the first a batches, base over it the first b, mid over base over it the
     first d (and top over all of it everything: tree_snapshot_reads_reference) *)
  Theorem tree_sections_hold_prefixes c ls cs :
    Forall (fun b => tb_good b = true) (cbatches ls) ->
    crun fm c (cinit c) ls = Some cs ->
    exists a b d ca cb cd,
      a <= b /\ b <= d /\ d <= length (cbatches ls) /\
      reads_as fm (assemble ca (osecs [None; None; None; None]) (t_ll (c_t cs)) (has_ll c))
               (ref_tree (firstn a (cbatches ls))) /\
      reads_as fm (assemble cb (osecs [None; None; t_base (c_t cs); None]) (t_ll (c_t cs)) (has_ll c))
               (ref_tree (firstn b (cbatches ls))) /\
      reads_as fm (assemble cd (osecs [None; t_mid (c_t cs); t_base (c_t cs); None])
                            (t_ll (c_t cs)) (has_ll c))
               (ref_tree (firstn d (cbatches ls))) /\
      (t_top (c_t cs) = None -> d = length (cbatches ls)) /\
      (t_mid (c_t cs) = None -> b = d) /\
      (t_base (c_t cs) = None -> a = b).
  Proof.
    intros Hg Hr. destruct (crun_init c ls cs Hg Hr) as [_ HG].
    destruct HG as (a & b & d & ca & cb & cd & Har & HA & HB & HD & _ & _ & _ & HE).
    exists a, b, d, ca, cb, cd.
    split; [lia|]. split; [lia|]. split; [lia|].
    split; [apply (assemble_reads_as HA)|].
    split; [apply (assemble_reads_as HB)|].
    split; [apply (assemble_reads_as HD)|]. exact HE.
  Qed.
End EndToEnd.

(* The witness of finding F28.  Before the repair only the ROOT of
   stackDirtyBase got the current lower-level snapshot at hand-over; the child
   stacks of base kept the child snapshot captured when they were ingested.
   A persistence round published between that ingest and the hand-over was
   invisible to them, and the next merger round resolved the child's Merge
   operands against base without the persisted value.  With the hand-over as it is now the same run reads
   correctly (an instance of tree_snapshot_reads_reference). *)
Definition cex_n : cname := [1%N].
Definition cex_k : bytes := [7%N].
Definition cex_cfg : cfg := {| cache_persisted := false; has_ll := true |}.
Definition cex_b (o : op) : tbatch := TB [] [(cex_n, Some (TB [(cex_k, o)] []))].
Definition cex_lt : lvltree := LT 0 [(cex_n, LT 0 [])].
Definition cex_run : list clabel :=
  [ CBatch (cex_b (OSet [100%N])); CIngest; CSwap cex_lt; CHandover;
    CBatch (cex_b (OMerge [97%N])); CIngest;
    CPBegin PAppend; CPPublish;
    CSwap cex_lt; CHandover;
    CBatch (cex_b (OMerge [98%N])); CBatch (cex_b (OMerge [99%N])); CIngest; CSwap cex_lt ].

Theorem tree_theorem_refuted_pre_fix :
  exists cs s r,
    Forall (fun b => tb_good b = true) (cbatches cex_run) /\
    crun_pre_fix fm_append cex_cfg (cinit cex_cfg) cex_run = Some cs /\
    assoc cex_n (ss_kids (t_cur_snapshot (c_t cs))) = Some s /\
    assoc cex_n (rt_kids (ref_tree (cbatches cex_run))) = Some r /\
    ss_get fm_append s cex_k = Some [58; 97; 58; 98; 58; 99]%N /\
    rt_get fm_append r cex_k = Some [100; 58; 97; 58; 98; 58; 99]%N.
Proof.
  do 3 eexists. split; [repeat constructor|].
  split; [vm_compute; reflexivity|]. split; [vm_compute; reflexivity|].
  split; [vm_compute; reflexivity|]. split; vm_compute; reflexivity.
Qed.

Example tree_witness_reads_correctly_now :
  match crun fm_append cex_cfg (cinit cex_cfg) cex_run with
  | Some cs => match assoc cex_n (ss_kids (t_cur_snapshot (c_t cs))) with
               | Some s => ss_get fm_append s cex_k
               | None => None end
  | None => None
  end = Some [100; 58; 97; 58; 98; 58; 99]%N.
Proof. vm_compute. reflexivity. Qed.

Print Assumptions tree_snapshot_reads_reference.
Print Assumptions tree_snapshot_reads_reference_at_every_path.
Print Assumptions tree_store_reads_prefix.
Print Assumptions tree_drained_store_is_reference.
Print Assumptions tree_store_reads_prefix_through_collection.
Print Assumptions tree_sections_hold_prefixes.
Print Assumptions tree_zero_gauges_store_is_reference_partial.
Print Assumptions tree_theorem_refuted_pre_fix.
