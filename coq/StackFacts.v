(* StackFacts.v — the denotational core: a merge that satisfies merged_ok
 preserves every read; merge_range (what mergeInto writes) satisfies it. *)
From Coq Require Import List NArith Bool Lia Arith.
From Moss Require Import Bytes BytesFacts Segment SegmentFacts Stack.

(* --- facts that do not involve the merge operator ---------------------- *)

Lemma newest_none upper k :
  newest upper k = None <-> forall s, In s upper -> find s k = None.
Proof.
  induction upper as [|s r IH]; simpl.
  - split; auto. intros _ s [].
  - destruct (find s k) eqn:E.
    + split; [discriminate|]. intros H. specialize (H s (or_introl eq_refl)). congruence.
    + rewrite IH. split.
      * intros H s' [<-|Hin]; auto.
      * intros H s' Hin. apply H; auto.
Qed.

Lemma all_keys_in upper k :
  In k (all_keys upper) <-> exists s, In s upper /\ In k (keys s).
Proof.
  unfold all_keys. induction upper as [|s r IH]; simpl.
  - split; [tauto|]. intros [s [[] _]].
  - rewrite kunion_in, IH. split.
    + intros [H|[s' [H1 H2]]]; eauto.
    + intros [s' [[<-|H1] H2]]; eauto.
Qed.

Lemma all_keys_asc upper : asc (all_keys upper).
Proof.
  unfold all_keys. induction upper as [|s r IH]; simpl; [constructor|].
  apply kunion_asc; auto.
Qed.

Lemma newest_some_in_all_keys upper k :
  In k (all_keys upper) <-> newest upper k <> None.
Proof.
  unfold all_keys. induction upper as [|s r IH]; simpl; [tauto|].
  rewrite kunion_in, IH. destruct (find s k) eqn:F.
  - split; [discriminate|]. left. eapply find_some_key; eauto.
  - apply find_none_iff in F. tauto.
Qed.

Lemma newest_notin upper k : ~ In k (all_keys upper) -> newest upper k = None.
Proof.
  intros H. destruct (newest upper k) eqn:E; [|reflexivity].
  destruct H. apply newest_some_in_all_keys. congruence.
Qed.

Lemma emit_one_spec tail upper fg k :
  emit_one tail upper fg k =
  option_map (fun o => (k, if tail && Nat.eqb (cursors_at upper k) 1 then o
                           else if is_merge o then resolve (fg k) else o)) (newest upper k).
Proof.
  unfold emit_one. destruct (newest upper k) as [o|]; [|reflexivity]. simpl.
  destruct (tail && _); [reflexivity|]. now destruct o.
Qed.

Definition emitted tail incl upper fg k : option op :=
  if skip_del incl upper k then None else option_map snd (emit_one tail upper fg k).

Lemma emit_all_ktab tail incl upper fg ks :
  emit_all tail incl upper fg ks = ktab (emitted tail incl upper fg) ks.
Proof.
  unfold emitted. induction ks as [|k r IH]; simpl; [reflexivity|]. rewrite IH.
  destruct (skip_del incl upper k); [reflexivity|]. rewrite emit_one_spec.
  now destruct (newest upper k).
Qed.

Lemma merge_range_asc tail incl upper fg : asc (keys (merge_range tail incl upper fg)).
Proof. unfold merge_range. rewrite emit_all_ktab. apply ktab_asc, all_keys_asc. Qed.

Lemma find_merge_range tail incl upper fg k :
  find (merge_range tail incl upper fg) k = emitted tail incl upper fg k.
Proof.
  unfold merge_range. rewrite emit_all_ktab. apply find_ktab; [apply asc_NoDup, all_keys_asc|].
  intros Hn. unfold emitted. rewrite emit_one_spec, (newest_notin _ _ Hn).
  now destruct (skip_del incl upper k).
Qed.

Lemma has_key_geq_false_find s k : has_key_geq s k = false -> find s k = None.
Proof.
  intros H. destruct (find s k) eqn:E; auto. exfalso.
  apply find_some_key in E. unfold has_key_geq in H.
  assert (existsb (fun e => bleb k (fst e)) s = true); [|congruence].
  unfold keys in E. apply in_map_iff in E. destruct E as [e [He Hin]].
  apply existsb_exists. exists e; split; auto. rewrite He. apply bleb_refl.
Qed.

Lemma cursors_zero_newest upper k : cursors_at upper k = 0 -> newest upper k = None.
Proof.
  unfold cursors_at. induction upper as [|s r IH]; simpl; auto.
  destruct (has_key_geq s k) eqn:E; simpl; [discriminate|].
  intros H. rewrite (has_key_geq_false_find _ _ E). auto.
Qed.

Section WithMerge.
  Variable fm : bytes -> value -> bytes -> value.
  Notation sget := (sget fm).
  Notation apply_op := (apply_op fm).

  Lemma sget_app a b below k : sget (a ++ b) below k = sget a (sget b below) k.
  Proof.
    induction a as [|s a IH]; simpl; auto. rewrite IH. reflexivity.
  Qed.

  Lemma sget_ext st b1 b2 k : b1 k = b2 k -> sget st b1 k = sget st b2 k.
  Proof. intros H. induction st as [|s st IH]; simpl; auto. now rewrite IH. Qed.

  Lemma sget_none upper below k : newest upper k = None -> sget upper below k = below k.
  Proof.
    induction upper as [|s r IH]; simpl; auto.
    destruct (find s k); [discriminate|]. auto.
  Qed.

  Lemma sget_newest_none upper lower below k :
    newest upper k = None -> sget (upper ++ lower) below k = sget lower below k.
  Proof. intros H. rewrite sget_app. now apply sget_none. Qed.

  Lemma sget_newest_some upper below k o :
    newest upper k = Some o -> exists cur, sget upper below k = apply_op k cur o.
  Proof.
    induction upper as [|s r IH]; simpl; [discriminate|].
    destruct (find s k); [|exact IH]. intros [= ->]. eauto.
  Qed.

  Lemma apply_op_setdel k c1 c2 o : is_merge o = false -> apply_op k c1 o = apply_op k c2 o.
  Proof. destruct o; simpl; auto; discriminate. Qed.

  Lemma apply_op_resolve k c v : apply_op k c (resolve v) = v.
  Proof. now destruct v. Qed.

  Lemma sget_setdel upper below k o :
    newest upper k = Some o -> is_merge o = false -> sget upper below k = apply_op k None o.
  Proof.
    intros H Hm. destruct (sget_newest_some upper below k o H) as [cur ->].
    now apply apply_op_setdel.
  Qed.

  Lemma sget_newest_setdel upper lower below k o :
    newest upper k = Some o -> is_merge o = false ->
    sget (upper ++ lower) below k = apply_op k None o.
  Proof. intros H Hm. rewrite sget_app. now apply sget_setdel. Qed.

  Lemma sget_newest_del upper below k :
    newest upper k = Some ODel -> sget upper below k = None.
  Proof. intros H. exact (sget_setdel _ _ _ _ H eq_refl). Qed.

  Definition merged_ok (m : segment) (upper lower : list segment) (below : bytes -> value) : Prop :=
    forall k,
      match find m k with
      | None => newest upper k = None
      | Some o => apply_op k (sget lower below k) o = sget (upper ++ lower) below k
      end.

  Theorem merge_preserves_view m upper lower below :
    merged_ok m upper lower below ->
    forall k, sget (m :: lower) below k = sget (upper ++ lower) below k.
  Proof.
    intros H k. specialize (H k). simpl. destruct (find m k); auto.
    now rewrite sget_newest_none.
  Qed.

  Lemma sget_single_cursor upper lower below k o :
    cursors_at upper k = 1 -> newest upper k = Some o ->
    sget (upper ++ lower) below k = apply_op k (sget lower below k) o.
  Proof.
    unfold cursors_at. induction upper as [|s r IH]; simpl; [discriminate|].
    destruct (has_key_geq s k) eqn:E; simpl.
    - intros H. injection H as H. apply cursors_zero_newest in H.
      destruct (find s k) eqn:F.
      + intros [= ->]. now rewrite (sget_newest_none _ _ _ _ H).
      + congruence.
    - rewrite (has_key_geq_false_find _ _ E). auto.
  Qed.

  (* --- merge_range satisfies merged_ok (deletions kept) ---------------- *)

  Theorem merge_range_ok tail upper lower below :
    merged_ok (merge_range tail true upper (sget (upper ++ lower) below)) upper lower below.
  Proof.
    intros k. rewrite find_merge_range. unfold emitted, skip_del. rewrite emit_one_spec. simpl.
    destruct (newest upper k) as [o|] eqn:En; simpl; [|reflexivity].
    destruct (tail && Nat.eqb (cursors_at upper k) 1) eqn:Et.
    - apply andb_true_iff in Et. destruct Et as [_ Et]. apply Nat.eqb_eq in Et.
      symmetry. now apply sget_single_cursor.
    - destruct (is_merge o) eqn:Em; [apply apply_op_resolve|].
      rewrite (sget_newest_setdel _ _ _ _ _ En Em). now apply apply_op_setdel.
  Qed.

  Corollary merge_stack_view lvl ss below k :
    sget (merge_stack fm lvl ss below) below k = sget ss below k.
  Proof.
    unfold merge_stack, split_at. set (n := length ss - lvl).
    rewrite <- (firstn_skipn n ss) at 2 4.
    apply merge_preserves_view, merge_range_ok.
  Qed.

  (* --- congruence of merge in the `below` function ---------------------- *)
  Lemma emit_all_ext tail incl upper f1 f2 ks :
    (forall k, f1 k = f2 k) -> emit_all tail incl upper f1 ks = emit_all tail incl upper f2 ks.
  Proof.
    intros H. induction ks as [|k r IH]; simpl; auto.
    unfold emit_one. rewrite (H k), IH. reflexivity.
  Qed.

  Lemma merge_stack_ext lvl ss b1 b2 :
    (forall k, b1 k = b2 k) -> merge_stack fm lvl ss b1 = merge_stack fm lvl ss b2.
  Proof.
    intros H. unfold merge_stack, split_at, merge_range. f_equal.
    apply emit_all_ext. intros k. apply sget_ext. apply H.
  Qed.

  Lemma merge_stack_view_ext lvl ss b below k :
    (forall k, b k = below k) -> sget (merge_stack fm lvl ss b) below k = sget ss below k.
  Proof. intros H. rewrite (merge_stack_ext lvl ss b below H). apply merge_stack_view. Qed.

  (* the mid stack the merger swaps in (Collection.step, LSwap) reads as the one it replaces *)
  Lemma swap_mid_view lvl m b below k :
    (forall k, b k = below k) ->
    sget (match m with
          | [] => m
          | _ => if Nat.ltb lvl (length m) then merge_stack fm lvl m b else m
          end) below k = sget m below k.
  Proof.
    intros H. destruct m as [|x xs]; [reflexivity|].
    destruct (Nat.ltb lvl (length (x :: xs))); [now apply merge_stack_view_ext|reflexivity].
  Qed.

  (* --- full compaction: deletions dropped, nothing beneath ------------- *)
  Theorem compact_full_view upper k :
    sget [merge_range false false upper (sget upper no_below)] no_below k
    = sget upper no_below k.
  Proof.
    simpl. rewrite find_merge_range. unfold emitted, skip_del. rewrite emit_one_spec. simpl.
    destruct (newest upper k) as [[v| |v]|] eqn:En; simpl; symmetry.
    - exact (sget_setdel _ _ _ _ En eq_refl).
    - now apply sget_newest_del.
    - symmetry. apply apply_op_resolve.
    - now apply sget_none.
  Qed.

  (* shape of a full compaction: no tombstone unless FullMerge returned nil *)
  Theorem compact_full_no_del upper k :
    (forall k c v, fm k c v <> None) ->
    find (merge_range false false upper (sget upper no_below)) k <> Some ODel.
  Proof.
    intros Hfm. rewrite find_merge_range. unfold emitted, skip_del. rewrite emit_one_spec. simpl.
    destruct (newest upper k) as [[v| |v]|] eqn:En; simpl; try discriminate.
    destruct (sget_newest_some _ no_below _ _ En) as [cur ->]. simpl.
    destruct (fm k cur v) eqn:F; [discriminate|]. now apply Hfm in F.
  Qed.
End WithMerge.
