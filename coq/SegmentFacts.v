From Coq Require Import List NArith Bool Lia.
From Moss Require Export ListFacts.
From Moss Require Import Bytes BytesFacts Segment.

Lemma find_none_iff s k : find s k = None <-> ~ In k (keys s).
Proof.
  induction s as [|[k' o] s IH]; simpl; [tauto|].
  destruct (beqb k' k) eqn:E.
  - apply beqb_true in E. split; [discriminate|]. intros H; exfalso; apply H; auto.
  - apply beqb_false in E. rewrite IH. tauto.
Qed.

Lemma find_some_in s k o : find s k = Some o -> In (k, o) s.
Proof.
  induction s as [|[k' o'] s IH]; simpl; [discriminate|].
  destruct (beqb k' k) eqn:E.
  - apply beqb_true in E; subst. intros [= ->]; auto.
  - auto.
Qed.

Lemma find_some_key s k o : find s k = Some o -> In k (keys s).
Proof. intros H. apply find_some_in in H. apply (in_map fst) in H. exact H. Qed.

Lemma in_keys_find s k : In k (keys s) -> exists o, find s k = Some o.
Proof.
  intros H. destruct (find s k) eqn:E; eauto. apply find_none_iff in E. tauto.
Qed.

(* --- strictly ascending key lists ---------------------------------- *)

Inductive asc : list bytes -> Prop :=
| asc_nil : asc []
| asc_one a : asc [a]
| asc_cons a b r : blt a b -> asc (b :: r) -> asc (a :: b :: r).

Lemma sorted_keys_asc l : sorted_keys l = true <-> asc l.
Proof.
  induction l as [|a [|b r] IH]; simpl.
  - split; constructor.
  - split; constructor.
  - rewrite andb_true_iff, bltb_true. split.
    + intros [H1 H2]. constructor; auto. apply IH; auto.
    + intros H; inversion H; subst. split; auto. apply IH; auto.
Qed.

Lemma asc_tail a l : asc (a :: l) -> asc l.
Proof. intros H; inversion H; subst; auto; constructor. Qed.

Lemma asc_head_lt a l : asc (a :: l) -> forall x, In x l -> blt a x.
Proof.
  revert a; induction l as [|b l IH]; intros a H x Hx; [destruct Hx|].
  inversion H; subst. destruct Hx as [->|Hx]; auto.
  eapply bcmp_trans; [eassumption|]. apply IH; auto.
Qed.

Lemma asc_NoDup l : asc l -> NoDup l.
Proof.
  induction l as [|a l IH]; intros H; constructor.
  - intros Hin. eapply asc_head_lt in Hin; eauto. exact (bcmp_lt_irrefl _ Hin).
  - apply IH. eapply asc_tail; eauto.
Qed.

Lemma asc_cons_intro a l : asc l -> (forall x, In x l -> blt a x) -> asc (a :: l).
Proof. destruct l as [|b l]; intros H1 H2; constructor; auto. apply H2; simpl; auto. Qed.

Lemma asc_map_head_lt {A} (f : A -> bytes) a l x : asc (map f (a :: l)) -> In x l -> blt (f a) (f x).
Proof. intros H Hx. apply (asc_head_lt _ _ H). now apply in_map. Qed.

Lemma asc_map_ext {A} (f : A -> bytes) (l1 l2 : list A) :
  asc (map f l1) -> asc (map f l2) -> (forall x, In x l1 <-> In x l2) -> l1 = l2.
Proof.
  revert l2. induction l1 as [|a l1 IH]; intros [|b l2] H1 H2 H; auto.
  - destruct (proj2 (H b) (or_introl eq_refl)).
  - destruct (proj1 (H a) (or_introl eq_refl)).
  - assert (a = b) as ->.
    { destruct (proj1 (H a) (or_introl eq_refl)) as [E|E]; auto.
      destruct (proj2 (H b) (or_introl eq_refl)) as [F|F]; auto.
      pose proof (asc_map_head_lt f _ _ _ H2 E) as G1.
      pose proof (asc_map_head_lt f _ _ _ H1 F) as G2.
      destruct (bcmp_lt_irrefl _ (bcmp_trans _ _ _ G1 G2)). }
    f_equal. apply IH; [eapply asc_tail; eauto|eapply asc_tail; eauto|].
    intros x. split; intros Hx.
    + destruct (proj1 (H x) (or_intror Hx)) as [E|E]; auto. subst.
      destruct (bcmp_lt_irrefl _ (asc_map_head_lt f _ _ _ H1 Hx)).
    + destruct (proj2 (H x) (or_intror Hx)) as [E|E]; auto. subst.
      destruct (bcmp_lt_irrefl _ (asc_map_head_lt f _ _ _ H2 Hx)).
Qed.

Lemma asc_map_filter {A} (f : A -> bytes) (Q : A -> bool) l : asc (map f l) -> asc (map f (filter Q l)).
Proof.
  induction l as [|a l IH]; simpl; intros G; auto.
  pose proof (asc_tail _ _ G) as Gt. destruct (Q a); auto.
  simpl. apply asc_cons_intro; auto. intros y Hy. apply in_map_iff in Hy.
  destruct Hy as [e [<- He]]. apply filter_In in He.
  apply (asc_map_head_lt f _ _ _ G). tauto.
Qed.

Lemma asc_filter P l : asc l -> asc (filter P l).
Proof.
  intros H. rewrite <- (map_id (filter P l)). apply asc_map_filter. now rewrite map_id.
Qed.

Lemma asc_app_r (p l : list bytes) : asc (p ++ l) -> asc l.
Proof. induction p as [|a p IH]; auto. intros H. apply IH. simpl in H. eapply asc_tail; eauto. Qed.

Lemma sorted_head_lt {A} (e0 : bytes * A) t e :
  asc (map fst (e0 :: t)) -> In e t -> bltb (fst e0) (fst e) = true.
Proof. intros H Hin. apply bltb_true. exact (asc_map_head_lt fst _ _ _ H Hin). Qed.

Lemma sorted_head_le {A} (e0 : bytes * A) t e :
  asc (map fst (e0 :: t)) -> In e (e0 :: t) -> bleb (fst e0) (fst e) = true.
Proof.
  intros H [<-|Hin]; [apply bleb_refl|]. apply bltb_bleb. eapply sorted_head_lt; eauto.
Qed.

Lemma kinsert_in k l x : In x (kinsert k l) <-> x = k \/ In x l.
Proof.
  induction l as [|a l IH]; simpl; [intuition|].
  destruct (bcmp k a) eqn:E; simpl.
  - apply bcmp_eq in E; subst. intuition.
  - intuition.
  - rewrite IH. intuition.
Qed.

Lemma kinsert_asc k l : asc l -> asc (kinsert k l).
Proof.
  induction l as [|a l IH]; simpl; intros H; [constructor|].
  destruct (bcmp k a) eqn:E; auto.
  - constructor; auto.
  - apply asc_cons_intro.
    + apply IH. eapply asc_tail; eauto.
    + intros x Hx. apply kinsert_in in Hx. destruct Hx as [->|Hx].
      * apply bcmp_gt_lt; auto.
      * eapply asc_head_lt; eauto.
Qed.

Lemma kunion_in a b x : In x (kunion a b) <-> In x a \/ In x b.
Proof.
  unfold kunion. induction a as [|y a IH]; simpl; [tauto|].
  rewrite kinsert_in, IH. intuition.
Qed.

Lemma kunion_asc a b : asc b -> asc (kunion a b).
Proof. unfold kunion. induction a; simpl; auto. intros; apply kinsert_asc; auto. Qed.

(* --- sorting a batch ------------------------------------------------- *)

Lemma einsert_in e s x : In x (einsert e s) <-> x = e \/ In x s.
Proof.
  induction s as [|a s IH]; simpl; [intuition|].
  destruct (bcmp (fst e) (fst a)); simpl; try rewrite IH; intuition.
Qed.

Lemma sort_seg_in s x : In x (sort_seg s) <-> In x s.
Proof.
  unfold sort_seg. induction s as [|a s IH]; simpl; [tauto|].
  rewrite einsert_in, IH. intuition.
Qed.

Lemma einsert_keys_asc e s :
  asc (keys s) -> ~ In (fst e) (keys s) -> asc (keys (einsert e s)).
Proof.
  induction s as [|a s IH]; simpl; intros H Hn; [constructor|].
  destruct (bcmp (fst e) (fst a)) eqn:E; simpl.
  - apply bcmp_eq in E. exfalso; apply Hn; auto.
  - constructor; auto.
  - apply asc_cons_intro.
    + apply IH; [eapply asc_tail; eauto | tauto].
    + intros x Hx. unfold keys in Hx. apply in_map_iff in Hx. destruct Hx as [y [<- Hy]].
      apply einsert_in in Hy. destruct Hy as [->|Hy].
      * apply bcmp_gt_lt; auto.
      * eapply asc_head_lt; eauto. apply in_map; auto.
Qed.

Lemma uniq_keys_NoDup l : uniq_keys l = true <-> NoDup l.
Proof.
  induction l as [|a l IH]; simpl; [split; constructor|].
  rewrite andb_true_iff, negb_true_iff, IH. split.
  - intros [H1 H2]. constructor; auto. intros Hin.
    assert (existsb (beqb a) l = true) by (apply existsb_exists; exists a; split; auto; apply beqb_refl).
    congruence.
  - intros H; inversion H; subst. split; auto.
    destruct (existsb (beqb a) l) eqn:E; auto. apply existsb_exists in E.
    destruct E as [x [Hx E]]. apply beqb_true in E; subst. tauto.
Qed.

Lemma sort_seg_keys_in s k : In k (keys (sort_seg s)) <-> In k (keys s).
Proof.
  unfold keys. rewrite !in_map_iff. split; intros [x [<- H]]; exists x; split; auto;
  apply sort_seg_in; auto.
Qed.

Lemma sort_seg_asc s : NoDup (keys s) -> asc (keys (sort_seg s)).
Proof.
  induction s as [|a s IH]; simpl; intros H; [constructor|].
  inversion H; subst. apply einsert_keys_asc; auto.
  rewrite sort_seg_keys_in. auto.
Qed.

(* find is insensitive to order when keys are unique *)
Lemma find_NoDup_in s k o : NoDup (keys s) -> In (k, o) s -> find s k = Some o.
Proof.
  induction s as [|[k' o'] s IH]; simpl; intros Hn Hin; [destruct Hin|].
  inversion Hn; subst. destruct Hin as [[= -> ->]|Hin].
  - now rewrite beqb_refl.
  - destruct (beqb k' k) eqn:E; auto. apply beqb_true in E; subst.
    exfalso. apply H1. apply (in_map fst) in Hin. exact Hin.
Qed.

Lemma find_sort_seg s k : NoDup (keys s) -> find (sort_seg s) k = find s k.
Proof.
  intros Hn. destruct (find s k) eqn:E.
  - apply find_NoDup_in.
    + apply asc_NoDup, sort_seg_asc; auto.
    + apply sort_seg_in. apply find_some_in; auto.
  - apply find_none_iff. rewrite sort_seg_keys_in. apply find_none_iff; auto.
Qed.

Lemma keys_filter (P : bytes -> bool) (s : segment) :
  keys (filter (fun e => P (fst e)) s) = filter P (keys s).
Proof.
  induction s as [|[k o] s IH]; simpl; auto.
  destruct (P k); simpl; now rewrite IH.
Qed.

Lemma find_filter (P : bytes -> bool) (s : segment) k :
  find (filter (fun e => P (fst e)) s) k = if P k then find s k else None.
Proof.
  induction s as [|[k' o] s IH]; simpl; [destruct (P k); auto|].
  destruct (P k') eqn:Ek'; simpl.
  - destruct (beqb k' k) eqn:E.
    + apply beqb_true in E; subst. now rewrite Ek'.
    + exact IH.
  - destruct (beqb k' k) eqn:E.
    + apply beqb_true in E; subst. rewrite Ek' in *. exact IH.
    + exact IH.
Qed.

Lemma find_in_iff (s : segment) k o : asc (keys s) -> (find s k = Some o <-> In (k, o) s).
Proof.
  intros H. split; [apply find_some_in|]. apply find_NoDup_in. now apply asc_NoDup.
Qed.

(* --- a segment tabulated over a key list ------------------------------ *)

(* [emit_all], [build_map] and the like walk a list of keys and emit at most
   one entry per key; they are instances of this. *)
Definition ktab (g : bytes -> option op) (ks : list bytes) : segment :=
  flat_map (fun k => match g k with Some o => [(k, o)] | None => [] end) ks.

Lemma ktab_in g ks k o : In (k, o) (ktab g ks) <-> In k ks /\ g k = Some o.
Proof.
  unfold ktab. rewrite in_flat_map. split.
  - intros (a & Ha & H). destruct (g a) eqn:E; [|destruct H].
    destruct H as [[= <- <-]|[]]. auto.
  - intros (Hk & E). exists k. rewrite E. simpl; auto.
Qed.

Lemma ktab_keys_sub g ks x : In x (keys (ktab g ks)) -> In x ks.
Proof. unfold keys. rewrite in_map_iff. intros ([k o] & <- & H). now apply ktab_in in H. Qed.

Lemma ktab_asc g ks : asc ks -> asc (keys (ktab g ks)).
Proof.
  induction ks as [|k r IH]; intros H; [constructor|].
  pose proof (asc_tail _ _ H). simpl. destruct (g k); simpl; auto.
  apply asc_cons_intro; auto. intros x Hx. eapply asc_head_lt; eauto using ktab_keys_sub.
Qed.

Lemma find_ktab g ks k : NoDup ks -> (~ In k ks -> g k = None) -> find (ktab g ks) k = g k.
Proof.
  induction ks as [|a r IH]; intros Hn Hg; simpl.
  - symmetry. auto.
  - inversion Hn; subst. destruct (beqb a k) eqn:E.
    + apply beqb_true in E. subst a. destruct (g k); simpl; [now rewrite beqb_refl|].
      apply find_none_iff. intros Hin. apply ktab_keys_sub in Hin. tauto.
    + assert (find (ktab g r) k = g k) as <-.
      { apply IH; [assumption|]. apply beqb_false in E. intros; apply Hg; simpl; tauto. }
      destruct (g a); simpl; [now rewrite E|reflexivity].
Qed.
