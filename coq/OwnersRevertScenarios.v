(* OwnersRevertScenarios.v -- the LIVE tie of the extended ownership model
   (OwnersRevert.v): the operation lists of the scripted scenarios with
   SnapshotPrevious, SnapshotRevert and Store.OpenCollection that the director
   family "owners" (harness/director/famowners.go) runs against the real
   library.  ocaml/ownersrun.ml evaluates xrun_events on the lists below and
   compares them, event for event and modulo a renaming of object ids, with the
   AddRef/DecRef events recorded from the real code.  After the scenarios: the
   extended model never gets stuck on bounded explorations (xexplore) and
   pseudo-random histories (xrand_run) over a concrete alphabet, each an instance
   of OwnersRevertProgressFacts.xstep_runs. *)
From Coq Require Import List Arith Bool Lia NArith.
From Moss Require Import Owners OwnersFacts OwnersScenarios OwnersRevert OwnersRevertFacts.
From Moss Require OwnersProgressLoops OwnersProgressFacts OwnersRevertProgressFacts.
Import ListNotations.

Definition rnd (nc : bool) (ntop nkid : nat) : list op := round nc (PAppend false ntop nkid) false.

(* 13: two appended rounds, the collection closed, Store.Snapshot, SnapshotPrevious (found),
   SnapshotRevert to the previous snapshot WHICH STAYS OPEN, Store.OpenCollection, one more
   round (it re-uses the mappings the reverted footer shares with the held snapshot), a store
   snapshot and its previous one (the footer the revert wrote), the held snapshots closed,
   collection and store closed *)
Definition sc_revert_previous_held : list xop :=
  xops (rnd false 1 0 ++ rnd false 1 0 ++ [OpCollClose; OpStoreSnap]) ++
  [XPrev 0 true 1 0 0; XRevert 1 RvDone; XOpenColl] ++
  xops (rnd false 1 0 ++ [OpStoreSnap]) ++
  [XPrev 2 true 1 0 0] ++
  xops ([OpCloseH 1; OpCloseH 0; OpCloseH 1; OpCloseH 0] ++ closing2).

(* 14: the same with a child collection: previous snapshot with a child footer, its child
   snapshot held too, a revert to the CHILD snapshot refused, the revert (new child footers,
   each owned by the new footer), OpenCollection (the child collection restored, the child
   footers renumbered in place), a round writing both collections, a collection snapshot, its
   child snapshot and an iterator on it; the previous snapshot is closed while its child
   snapshot and everything built on the shared mappings is still open *)
Definition sc_revert_child_previous_held : list xop :=
  xops (rnd true 1 1 ++ rnd false 1 1 ++ [OpCollClose; OpStoreSnap]) ++
  [XPrev 0 true 1 1 1; XOp (OpChildSnap 1 0); XRevert 2 RvRefused; XRevert 1 RvDone; XOpenColl] ++
  xops (rnd false 1 1 ++ [OpSnapFresh; OpChildSnap 3 0; OpIterStart 4 IKLower;
        OpCloseH 1; OpCloseH 0; OpCloseH 1; OpCloseH 2; OpCloseH 1; OpCloseH 0] ++ closing2).

(* 15: the previous snapshot is closed right after the revert, BEFORE the continuation: the
   reverted footer alone keeps the shared mappings alive through two more rounds *)
Definition sc_revert_previous_closed_first : list xop :=
  xops (rnd false 1 0 ++ rnd false 1 0 ++ [OpCollClose; OpStoreSnap]) ++
  [XPrev 0 true 1 0 0; XOp (OpCloseH 0); XRevert 0 RvDone; XOp (OpCloseH 0); XOpenColl] ++
  xops (rnd false 1 0 ++ rnd false 1 0 ++
        [OpSnapFresh; OpIterStart 0 IKLower; OpCloseH 0; OpCloseH 0] ++ closing2).

(* 16: all data in the child collection (the data file is reached through the child footers:
   repair 8f6c423): SnapshotPrevious, revert, OpenCollection, a round, SnapshotPrevious of the
   new state, a second revert - to the CURRENT snapshot - with the collection closed again *)
Definition sc_revert_child_only : list xop :=
  xops (rnd true 0 1 ++ rnd false 0 1 ++ [OpCollClose; OpStoreSnap]) ++
  [XPrev 0 true 0 1 1; XRevert 1 RvDone; XOpenColl] ++
  xops (rnd false 0 1 ++ [OpStoreSnap]) ++
  [XPrev 2 true 0 1 1; XOp OpCollClose; XRevert 2 RvDone] ++
  xops [OpCloseH 3; OpCloseH 2; OpCloseH 1; OpCloseH 0; OpStoreClose].

Definition owners_revert_scenarios : list (list xop) :=
  [sc_revert_previous_held; sc_revert_child_previous_held; sc_revert_previous_closed_first;
   sc_revert_child_only].

Example owners_revert_scenarios_current_code :
  forallb (forallb xcurrent_code) owners_revert_scenarios = true.
Proof. vm_compute. reflexivity. Qed.

Example owners_revert_scenarios_run :
  forallb (fun sc => match xrun sc with Some st => all_closed_b st | None => false end)
          owners_revert_scenarios = true.
Proof. vm_compute. reflexivity. Qed.

(* every revert of the scenarios is a revert (not one the model refuses as illegal): the
   store's footer is another object afterwards *)
Definition revert_changes_footer (sc : list xop) : bool :=
  (fix go (st : state) (ops : list xop) : bool :=
     match ops with
     | [] => true
     | o :: r => match xstep o st with
                 | Some st' =>
                     match o with
                     | XRevert _ RvDone =>
                         match regs st SFooter, regs st' SFooter with
                         | Some a, Some b => negb (Nat.eqb a b) | _, _ => false end
                     | _ => true
                     end && go st' r
                 | None => false
                 end
     end) init sc.
Example owners_revert_scenarios_revert :
  forallb revert_changes_footer owners_revert_scenarios = true.
Proof. vm_compute. reflexivity. Qed.

Example owners_revert_scenarios_files :
  map xrun_nfiles owners_revert_scenarios = [Some 1; Some 1; Some 1; Some 1].
Proof. vm_compute. reflexivity. Qed.

(* what the theorems say about these histories, instantiated *)
Example owners_revert_scenarios_all_released :
  forall sc st, In sc owners_revert_scenarios -> xrun sc = Some st ->
    (forall o, cnt_of (hp st) o = 0) /\ open_fds st = [] /\ mappings st = 0.
Proof.
  intros sc st Hin H.
  assert (F : forallb xcurrent_code sc = true).
  { pose proof owners_revert_scenarios_current_code as C. rewrite forallb_forall in C. auto. }
  assert (A : all_closed st).
  { pose proof owners_revert_scenarios_run as C. rewrite forallb_forall in C.
    specialize (C sc Hin). rewrite H in C. unfold all_closed_b in C. unfold all_closed.
    destruct (handles st); [|discriminate]. apply andb_prop in C. destruct C as [C1 C2].
    apply negb_true_iff in C1, C2. auto. }
  exact (x_all_closed_all_released_current_code sc st F H A).
Qed.

(* the extended model never gets stuck (a primitive refusing: AddRef or DecRef of a released
   object, a reference given back that is not held, a slot overwritten, a local left over),
   instantiated (firstn 17 and firstn 20 of a scenario: before and after the revert).  All of
   these are sequences of operations that OwnersRevertProgressFacts.xstep_runs covers, so
   nothing is run: each conjunct follows from that theorem. *)
Definition xnew : list xop :=
  [XPrev 0 true 1 1 1; XPrev 1 true 2 0 0; XPrev 0 true 0 1 1; XPrev 2 false 0 0 0;
   XRevert 0 RvDone; XRevert 1 RvDone; XRevert 2 RvDone; XRevert 0 RvWriteFail;
   XRevert 1 RvWriteFail; XRevert 1 RvRefused; XOpenColl].
Definition xalphabet : list xop := xops alphabet ++ xnew.
Definition xhist : list xop :=
  [XOp OpStoreSnap; XPrev 0 true 1 1 1; XPrev 1 true 1 0 0; XRevert 0 RvDone; XRevert 1 RvDone;
   XRevert 2 RvDone; XRevert 3 RvDone; XOp OpCollClose; XOpenColl; XOp (OpCloseH 0); XOp (OpCloseH 2)].
Definition xalphabet_busy : list xop :=
  xops alphabet_busy ++ xnew ++ xhist ++ xhist ++ xhist.

Fixpoint xexplore (depth : nat) (st : state) : bool :=
  match depth with
  | 0 => true
  | S d => forallb (fun o => match xstep o st with
                             | Some st' => xexplore d st'
                             | None => false end) xalphabet
  end.
Fixpoint xrand_run (al : list xop) (n : nat) (x : N) (st : state) : option state :=
  match n with
  | O => Some st
  | S n' => let x' := lcg x in
            match xstep (nth (N.to_nat ((x' / 65536) mod (N.of_nat (length al)))%N) al XOpenColl) st with
            | Some st' => xrand_run al n' x' st'
            | None => None
            end
  end.

(* the number of reverts that replaced the store's footer and of collections opened in a
   pseudo-random history: the histories below do exercise the new operations *)
Fixpoint xrand_count (al : list xop) (n : nat) (x : N) (st : state) (k : nat * nat) : nat * nat :=
  match n with
  | O => k
  | S n' => let x' := lcg x in
            let o := nth (N.to_nat ((x' / 65536) mod (N.of_nat (length al)))%N) al XOpenColl in
            match xstep o st with
            | Some st' =>
                xrand_count al n' x' st'
                  (match o with
                   | XRevert _ RvDone =>
                       match regs st SFooter, regs st' SFooter with
                       | Some a, Some b => if Nat.eqb a b then k else (S (fst k), snd k)
                       | _, _ => k end
                   | XOpenColl => if negb (copen (ct st)) && copen (ct st')
                                  then (fst k, S (snd k)) else k
                   | _ => k
                   end)
            | None => k
            end
  end.

Lemma forallb_firstn {A} (f : A -> bool) n : forall l, forallb f l = true -> forallb f (firstn n l) = true.
Proof.
  induction n as [|n IH]; intros [|a l] H; simpl in *; auto.
  apply andb_prop in H. destruct H as [H1 H2]. rewrite H1. simpl. auto.
Qed.

Import OwnersRevertProgressFacts.

Lemma xalphabet_runnable : forallb xrunnable xalphabet = true.
Proof. vm_compute. reflexivity. Qed.

Lemma xexplore_good d : forall st, OwnersProgressLoops.Good st -> Cinv st -> xexplore d st = true.
Proof.
  induction d as [|d IH]; intros st HG HC; cbn [xexplore]; [reflexivity|].
  apply forallb_forall. intros x Hx.
  destruct (xstep_runs x st HG HC) as [st' [E [HG' HC']]].
  - pose proof xalphabet_runnable as F. rewrite forallb_forall in F. exact (F x Hx).
  - rewrite E. apply IH; assumption.
Qed.

Lemma xrand_run_good al : forallb xrunnable al = true -> forall n x st,
  OwnersProgressLoops.Good st -> Cinv st ->
  exists st', xrand_run al n x st = Some st' /\ OwnersProgressLoops.Good st' /\ Cinv st'.
Proof.
  intros F. induction n as [|n IH]; intros x st HG HC; cbn [xrand_run]; [eauto|]. cbv zeta.
  match goal with |- context [xstep ?o st] => destruct (xstep_runs o st HG HC) as [st' [E [HG' HC']]] end.
  - destruct (nth_in_or_default (N.to_nat ((lcg x / 65536) mod N.of_nat (length al))) al XOpenColl)
      as [Hin| ->]; [|reflexivity].
    rewrite forallb_forall in F. exact (F _ Hin).
  - rewrite E. apply IH; assumption.
Qed.

Theorem x_no_fault_bounded_partial :
  xexplore 4 init = true /\
  forallb (fun sc => match xrun (firstn 17 sc) with Some st => xexplore 3 st | None => false end)
          owners_revert_scenarios = true /\
  forallb (fun sc => match xrun (firstn 20 sc) with Some st => xexplore 3 st | None => false end)
          owners_revert_scenarios = true /\
  forallb (fun s => match xrand_run xalphabet_busy 150 s init with
                    | Some st => xexplore 2 st | None => false end) (seeds 40 11%N) = true /\
  forallb (fun s => is_ok (xrand_run xalphabet_busy 300 s init)) (seeds 300 1%N) = true.
Proof.
  pose proof OwnersProgressFacts.Good_init as G0. pose proof Cinv_init as C0.
  assert (P : forall n d, forallb (fun sc => match xrun (firstn n sc) with
                                            | Some st => xexplore d st | None => false end)
                                  owners_revert_scenarios = true).
  { intros n d. apply forallb_forall. intros sc Hsc.
    pose proof owners_revert_scenarios_current_code as F. rewrite forallb_forall in F.
    destruct (xrunnable_run (firstn n sc) init G0 C0) as [st [E [HG HC]]].
    - apply forallb_firstn, forallb_forall. intros x Hx.
      apply xcurrent_runnable. eapply forallb_forall; [exact (F sc Hsc)|exact Hx].
    - unfold xrun. rewrite E. apply xexplore_good; assumption. }
  assert (R : forall n s, exists st, xrand_run xalphabet_busy n s init = Some st /\
                                     OwnersProgressLoops.Good st /\ Cinv st).
  { intros n s. apply xrand_run_good; [vm_compute; reflexivity|exact G0|exact C0]. }
  split; [apply xexplore_good; assumption|].
  split; [apply P|]. split; [apply P|].
  split; apply forallb_forall; intros s _; cbv beta.
  - destruct (R 150 s) as [st [E [HG HC]]]. rewrite E. apply xexplore_good; assumption.
  - destruct (R 300 s) as [st [E _]]. rewrite E. reflexivity.
Qed.

Example x_random_histories_do_revert :
  let t := fold_right (fun s acc => let c := xrand_count xalphabet_busy 300 s init (0, 0) in
                                    (fst c + fst acc, snd c + snd acc)) (0, 0) (seeds 300 1%N) in
  Nat.leb 300 (fst t) && Nat.leb 300 (snd t) = true.
Proof. vm_compute. reflexivity. Qed.

Print Assumptions owners_revert_scenarios_current_code.
Print Assumptions owners_revert_scenarios_run.
Print Assumptions owners_revert_scenarios_revert.
Print Assumptions owners_revert_scenarios_files.
Print Assumptions owners_revert_scenarios_all_released.
Print Assumptions x_no_fault_bounded_partial.
Print Assumptions x_random_histories_do_revert.
