(* Sync2Progress.v - the progress theorems about Sync2.v: open_step / open_drain (calls
   return while the collection is open), close_step / close_drain (Close is final and
   bounded), and for data at rest persist_step / persist_stall_free (a merged stack that
   waits for the persister gets closer to its hand-over, measure mu_p) with the special
   case no_persist_stall_partial (two merger positions excluded). *)
From Coq Require Import List Arith Bool Lia.
Import ListNotations.
From Moss Require Import Sync2 Sync2Facts Sync2ProgressA.

Section ClosedMode.
Variable c : config.
Hypothesis cap_pos : 1 <= c_cap c.
Hypothesis qcap_pos : 1 <= c_qcap c.

(* Close: once stopCh is closed, a bounded number of steps of the background
   goroutines, of the callers in flight and of the closer itself brings everything
   to rest *)
(* another merger cycle is due: something in the top, or a pending hand-over to retry; a
   position of the merger's loop (seven steps round from MCheck) then counts 7 more in dMc *)
Definition needc (s : state) : bool :=
  (0 <? z_top s) || (z_hp s && z_mid s && negb (z_base s)).
Definition dMc (s : state) : nat :=
  match z_mp s with
  | MDone => 0 | MExit => 1 | MSelect => 2
  | MCheck => if needc s then 10 else 3
  | MReply => if needc s then 11 else 4
  | MWaitOut _ => if needc s then 12 else 5
  | MHandover => if 0 <? z_top s then 13 else 6
  | MMerge => if 0 <? z_top s then 14 else 7
  | MIngest => 8 | MDrain => 9 end.
Definition dPc (s : state) : nat :=
  match z_pp s with
  | PDone => 0 | PChk => 1 | PTop | PWoken => 2 | PCloseOut _ => 3 | PPublish => 4
  | PUpdate => 5 | _ => 9 end.
Definition dCc (s : state) : nat :=
  match z_cp s with CJoinM => 3 | CJoinP => 2 | CFinal => 1 | _ => 0 end.
Definition mu_c (s : state) : nat :=
  2 * z_wwoken s + z_wclcur s + z_wclold s + notif_pending s + dMc s + dPc s + dCc s.

(* everything has come to rest: goroutines gone, Close returned, no call in flight *)
Definition at_rest (s : state) : Prop :=
  z_mp s = MDone /\ z_pp s = PDone /\ z_cp s = CRet /\
  z_wwait s = 0 /\ z_wwoken s = 0 /\ z_wclcur s = 0 /\ z_wclold s = 0 /\ notif_pending s = 0.

Lemma mu_c_bound s : mu_c s <= 2 * z_wwoken s + z_wclcur s + z_wclold s + notif_pending s + 26.
Proof using cap_pos qcap_pos.
  assert (dMc s <= 14) by (unfold dMc; destruct (z_mp s), (needc s), (0 <? z_top s); lia).
  assert (dPc s <= 9) by (unfold dPc; destruct (z_pp s); lia).
  assert (dCc s <= 3) by (unfold dCc; destruct (z_cp s); lia).
  unfold mu_c. lia.
Qed.

(* mu_c is a sum over the actors: each of them has a step that shortens its own term and
   leaves the others alone *)
Ltac sum_c := unfold mu_c, notif_pending, waitpong, dMc, needc, dPc, dCc; zs.
Ltac sum_at E := sum_c; rewrite E; zs.

Lemma close_notifier s :
  z_closed s = true -> 0 < notif_pending s -> progresses c mu_c s.
Proof.
  intros Cl P. destruct (close_releases_all c cap_pos qcap_pos s Cl P) as (l & s' & L & St & Dn & _).
  apply (progress_by c mu_c s l s' St); [destruct l; try discriminate L; reflexivity|].
  destruct l; try discriminate L; step_cases St; revert Dn; sum_c; lia.
Qed.

Lemma close_writer s :
  inv c s -> z_closed s = true -> 0 < z_wclcur s + z_wclold s + z_wwoken s -> progresses c mu_c s.
Proof.
  intros I Cl P.
  destruct (Nat.eq_0_gt_0_cases (z_wclcur s)) as [C1|C1].
  2:{ eapply progress_by; [apply step_LWCloseInc, C1|reflexivity|]. sum_c. lia. }
  destruct (Nat.eq_0_gt_0_cases (z_wclold s)) as [C2|C2].
  2:{ eapply progress_by; [apply step_LWCloseOld, C2|reflexivity|]. sum_c. lia. }
  eapply progress_by; [apply step_LWRecheck; [exact (inv_lk c s I)|lia]|reflexivity|].
  rewrite writer_enter_closed by exact Cl. sum_c. lia.
Qed.

(* the merger goes to sleep exactly when no further cycle is due *)
Lemma check_sleeps s :
  (z_top s =? 0) && negb (z_hp s && z_mid s && negb (z_base s)) = negb (needc s).
Proof. unfold needc. destruct (z_top s); destruct (_ && _ && _); reflexivity. Qed.

Lemma close_merger s :
  inv c s -> z_closed s = true -> z_wwait s = 0 -> z_mp s = MDone \/ progresses c mu_c s.
Proof.
  intros I Cl W. pose proof (inv_lk c s I) as L.
  destruct (z_mp s) eqn:E; [right..|left; reflexivity].
  - eapply progress_by; [apply step_LMReply, E|reflexivity|].
    sum_at E. destruct (_ || _); lia.
  - eapply progress_by; [apply step_LMCheck; assumption|reflexivity|].
    rewrite check_sleeps. destruct (needc s) eqn:Nc; cbn [negb]; unfold needc in Nc; sum_at E; rewrite ?Nc; lia.
  - eapply progress_by; [apply step_LMSelStop; assumption|reflexivity|]. sum_at E. lia.
  - eapply progress_by; [apply step_LMDrain, E|reflexivity|]. sum_at E. cbn [nsync]. lia.
  - eapply progress_by; [apply step_LMIngest; assumption|reflexivity|].
    unfold broadcast_top. sum_at E. rewrite W, Nat.ltb_irrefl. lia.
  - eapply progress_by; [apply step_LMMergeOk; assumption|reflexivity|].
    sum_at E. destruct (0 <? z_top s); lia.
  - (* the hand-over leaves nothing to retry: a further cycle is due only for the top *)
    destruct (step_LMHandover c s E L) as (s' & St & (F1&_&F3&F4&F5&F6&F7&F8) & _ & Cp & Pp & M & _ & Nc).
    eapply progress_by; [exact St|reflexivity|].
    unfold mu_c, notif_pending, waitpong, dMc, needc, dPc, dCc.
    rewrite F1, F3, F4, F5, F6, F7, Cp, Nc, E, orb_false_r.
    destruct Pp as [->|[-> ->]]; destruct M as [->|(g & -> & _)]; destruct (0 <? z_top s); lia.
  - eapply progress_by; [eapply step_LMOutStop; eassumption|reflexivity|].
    sum_at E. destruct (_ || _); lia.
  - eapply progress_by; [apply step_LMExit, E|reflexivity|]. sum_at E. cbn [nsync]. lia.
Qed.

(* once the merger is gone nothing reads what the persister's round writes *)
Lemma close_persister s :
  inv c s -> z_closed s = true -> z_mp s = MDone -> z_pp s = PDone \/ progresses c mu_c s.
Proof.
  intros I Cl E. pose proof (inv_lk c s I) as L.
  destruct (persister_parked c s I) as (NL & PW & _).
  destruct (z_pp s) as [| | | | | |og| |] eqn:Ep; [right..|left; reflexivity].
  - eapply progress_by; [apply step_LPTop_busy; auto|reflexivity|]. sum_at Ep. lia.
  - destruct (PW eq_refl). congruence.
  - eapply progress_by; [apply step_LPTop_busy; auto|reflexivity|]. sum_at Ep. lia.
  - eapply progress_by; [apply step_LPChk, Ep|reflexivity|]. rewrite Cl. sum_at Ep. lia.
  - eapply progress_by; [apply step_LPUpdOk, Ep|reflexivity|]. sum_at Ep. lia.
  - eapply progress_by; [apply step_LPPublish; assumption|reflexivity|]. sum_at Ep. rewrite E. lia.
  - eapply progress_by; [apply (step_LPCloseOut c s og Ep)|reflexivity|].
    rewrite E. destruct og; sum_at Ep; lia.
  - congruence.
Qed.

Lemma close_closer s :
  inv c s -> z_closed s = true -> z_mp s = MDone -> z_pp s = PDone ->
  z_cp s = CRet \/ progresses c mu_c s.
Proof.
  intros I Cl E Ep. pose proof (inv_lk c s I) as L. inv_clauses I.
  destruct (z_cp s) eqn:Ec; [right..|left; reflexivity].
  - destruct (I18 Cl). reflexivity.
  - eapply progress_by; [apply step_LCJoinM; assumption|reflexivity|]. sum_at Ec. lia.
  - eapply progress_by; [apply step_LCJoinP; assumption|reflexivity|]. sum_at Ec. lia.
  - eapply progress_by; [apply step_LCFinal; assumption|reflexivity|]. sum_at Ec. rewrite E. lia.
Qed.

Theorem close_step s :
  inv c s -> z_closed s = true -> 0 < mu_c s ->
  exists l s', bg l = true /\ step c s l = Some s' /\ mu_c s' < mu_c s.
Proof using cap_pos qcap_pos.
  intros I Cl P.
  destruct (Nat.eq_0_gt_0_cases (notif_pending s)) as [C0|C0]; [|apply close_notifier; assumption].
  destruct (Nat.eq_0_gt_0_cases (z_wclcur s + z_wclold s + z_wwoken s)) as [C1|C1];
    [|apply close_writer; assumption].
  destruct (close_merger s I Cl (closed_no_waiter c s I Cl)) as [E|?]; [|assumption].
  destruct (close_persister s I Cl E) as [Ep|?]; [|assumption].
  destruct (close_closer s I Cl E Ep) as [Ec|?]; [|assumption].
  unfold mu_c, dMc, dPc, dCc in P. rewrite E, Ep, Ec in P. lia.
Qed.

Lemma mu_c_zero s : inv c s -> z_closed s = true -> mu_c s = 0 -> at_rest s.
Proof.
  intros I Cl Z. pose proof (closed_no_waiter c s I Cl) as W. inv_clauses I. specialize (I18 Cl).
  unfold at_rest. unfold mu_c, dMc, dPc, dCc in Z.
  destruct (z_mp s); try (destruct (needc s)); try (destruct (0 <? z_top s)); try lia;
  destruct (z_pp s); try lia; destruct (z_cp s); try lia; try congruence; repeat split; auto; lia.
Qed.

(* Close is final and bounded: a schedule of background / in-flight steps, no longer than
   mu_c s <= 2*woken + closing + pending notifiers + 26, after which the goroutines
   are gone, Close has returned and no call is in flight *)
Theorem close_drain : forall n s,
  inv c s -> z_closed s = true -> mu_c s <= n ->
  exists ls s', Forall (fun l => bg l = true) ls /\ length ls <= mu_c s /\
                run c s ls = Some s' /\ at_rest s' /\ inv c s'.
Proof using cap_pos qcap_pos.
  intros n s I Cl _.
  destruct (drain c (fun s => inv c s /\ z_closed s = true) at_rest mu_c) with (s := s)
    as (ls & s' & F & L & R & A & I' & _); auto.
  - intros s0 [I0 Cl0]. destruct (Nat.eq_0_gt_0_cases (mu_c s0)) as [Z|P].
    + left. apply mu_c_zero; assumption.
    + right. destruct (close_step s0 I0 Cl0 P) as (l & s1 & B & St & D). exists l, s1.
      split; [exact B|]. split; [exact St|]. split; [exact D|].
      split; [eapply inv_step|eapply closed_stays]; eauto.
  - exists ls, s'. auto.
Qed.
End ClosedMode.

Section OpenMode.
Variable c : config.
Hypothesis cap_pos : 1 <= c_cap c.
Hypothesis qcap_pos : 1 <= c_qcap c.

(* while the collection is open and some call is in flight, a background / in-flight
   step is enabled that decreases mu_o *)
Theorem open_step s :
  inv c s -> z_closed s = false -> pending s ->
  exists l s', bg l = true /\ step c s l = Some s' /\ mu_o c s' < mu_o c s.
Proof using cap_pos qcap_pos.
  intros I Cl P. destruct (open_callers c s I Cl P) as [A|[N W]]; [exact A|].
  apply open_merger; assumption.
Qed.

(* a schedule of background / in-flight steps, no longer than mu_o, after which every
   call that had been made has returned (open collection) *)
Theorem open_drain : forall n s,
  inv c s -> z_closed s = false -> mu_o c s <= n ->
  exists ls s', Forall (fun l => bg l = true) ls /\ length ls <= mu_o c s /\
                run c s ls = Some s' /\ ~ pending s' /\ z_closed s' = false /\ inv c s'.
Proof using cap_pos qcap_pos.
  intros n s I Cl _.
  apply (drain c (fun s => z_closed s = false /\ inv c s) (fun s => ~ pending s) (mu_o c)); [|auto].
  intros s0 [Cl0 I0]. destruct (Nat.eq_0_gt_0_cases (calls s0)) as [Z|P].
  - left. apply not_pending_calls, Z.
  - right. destruct (open_step s0 I0 Cl0 P) as (l & s1 & B & St & D). exists l, s1.
    split; [exact B|]. split; [exact St|]. split; [exact D|].
    split; [eapply bg_keeps_open|eapply inv_step]; eauto.
Qed.
End OpenMode.

Section PersistStall.
Variable c : config.
Hypothesis cap_pos : 1 <= c_cap c.
Hypothesis qcap_pos : 1 <= c_qcap c.

(* the persistence stall is gone (collection_merger.go 683d401, handoverPending / retryHandover): while unpersisted data sits in
   stackDirtyMid with stackDirtyBase empty, some background step is enabled and brings
   the hand-over closer *)
Definition wakeable (s : state) : bool :=
  z_incc s || match z_q s with [] => false | _ => true end.
Definition dPp (s : state) : nat :=
  match z_pp s with
  | PTop | PWoken => 1 | PCloseOut _ => 2 | PPublish => 3 | PUpdate => 4 | PChk => 5 | _ => 0 end.
(* steps until stackDirtyMid has been handed to the persister *)
Definition mu_p (s : state) : nat :=
  if negb (z_mid s) || z_base s then 0 else
  match z_mp s with
  | MHandover => 1 | MMerge => 2 | MIngest => 3 | MDrain => 4
  | MSelect => 5 + (if wakeable s then 0 else dPp s)
  | MCheck => 11 | MReply => 12
  | MWaitOut _ => 13 + (if z_oready s then 0 else 1)
  | _ => 0 end.

Definition stack_kept (s s' : state) : Prop :=
  z_top s' <= z_top s /\
  (z_mid s' = true /\ z_base s' = false \/ z_mid s' = false /\ z_base s' = true).

Ltac dist_p E := unfold mu_p, dPp, wakeable, stack_kept; zs; rewrite ?E; zs.

Lemma persist_step s :
  inv c s -> invK c s -> c_ll c = true -> z_closed s = false ->
  z_mid s = true -> z_base s = false -> calls s = 0 ->
  exists l s', bg l = true /\ step c s l = Some s' /\ mu_p s' < mu_p s /\ stack_kept s s'.
Proof using cap_pos qcap_pos.
  intros I K Ll Cl M B NP. pose proof (inv_lk c s I) as L.
  pose proof (open_not_exiting c s I Cl) as X.
  assert (by_step : forall l s', step c s l = Some s' -> bg l = true ->
            mu_p s' < mu_p s /\ stack_kept s s' ->
            exists l s', bg l = true /\ step c s l = Some s' /\ mu_p s' < mu_p s /\ stack_kept s s').
  { intros l s' St Bl [D Kp]. exists l, s'. auto. }
  destruct (z_mp s) as [| | | | | | |g| |] eqn:E; try discriminate X.
  - eapply by_step; [apply step_LMReply, E|reflexivity|]. dist_p E. rewrite M, B. cbn. lia.
  - (* the skipped hand-over is remembered: the merger does not go to sleep *)
    eapply by_step; [apply step_LMCheck; assumption|reflexivity|].
    destruct K as [K1 _]. rewrite K1, M, B, andb_false_r by (rewrite ?E; auto). dist_p E. rewrite M, B. cbn. lia.
  - destruct (z_incc s) eqn:Ei.
    { eapply by_step; [apply step_LMSelInc; assumption|reflexivity|]. dist_p E. rewrite M, B. cbn. lia. }
    destruct (z_q s) as [|b r] eqn:Eq.
    2:{ eapply by_step; [eapply step_LMSelPing; eassumption|reflexivity|]. dist_p E. rewrite M, B. cbn. lia. }
    (* asleep, and nothing wakes it yet: the persister's round ends with a ping *)
    destruct (asleep_armed c s I E Ei) as [A T]; [unfold calls in NP; lia|].
    destruct (persister_parked c s I) as (NL & _ & PD).
    destruct (z_pp s) as [| | | | | |og| |] eqn:Ep.
    + eapply by_step; [apply step_LPTop_ping; auto|reflexivity|].
      { unfold room. rewrite Eq. apply Nat.ltb_lt. exact qcap_pos. }
      dist_p E. rewrite M, B, Ei, Eq, Ep. cbn. lia.
    + destruct K as [_ K2]. specialize (K2 Ll E M B Ep). rewrite Eq in K2.
      specialize (K2 eq_refl Ei). unfold calls in NP. lia.
    + eapply by_step; [apply step_LPTop_ping; auto|reflexivity|].
      { unfold room. rewrite Eq. apply Nat.ltb_lt. exact qcap_pos. }
      dist_p E. rewrite M, B, Ei, Eq, Ep. cbn. lia.
    + eapply by_step; [apply step_LPChk, Ep|reflexivity|]. rewrite Cl.
      dist_p E. rewrite M, B, Ei, Eq, Ep. cbn. lia.
    + eapply by_step; [apply step_LPUpdOk, Ep|reflexivity|].
      dist_p E. rewrite M, B, Ei, Eq, Ep. cbn. lia.
    + eapply by_step; [apply step_LPPublish; assumption|reflexivity|].
      dist_p E. rewrite M, B, Ei, Eq, Ep. cbn. lia.
    + eapply by_step; [apply (step_LPCloseOut c s og Ep)|reflexivity|]. rewrite E.
      destruct og; dist_p E; rewrite M, B, Ei, Eq, Ep; cbn; lia.
    + congruence.
    + rewrite PD in Cl by auto. discriminate.
  - eapply by_step; [apply step_LMDrain, E|reflexivity|]. dist_p E. rewrite M, B. cbn. lia.
  - eapply by_step; [apply step_LMIngest; assumption|reflexivity|].
    unfold broadcast_top. dist_p E. rewrite M, B. cbn. lia.
  - eapply by_step; [apply step_LMMergeOk; assumption|reflexivity|]. dist_p E. rewrite M, B. cbn. lia.
  - destruct (step_LMHandover c s E L) as (s' & St & (F1 & _) & _ & _ & _ & _ & H & _).
    unfold hands_over in H. rewrite Ll, M, B in H. destruct H as [M' B'].
    eapply by_step; [exact St|reflexivity|].
    unfold mu_p, stack_kept. rewrite M', B', M, B, E. cbn. lia.
  - destruct (z_oready s) eqn:Er.
    { eapply by_step; [eapply step_LMOutWake; eassumption|reflexivity|]. dist_p E. rewrite M, B, Er. cbn. lia. }
    eapply by_step; [apply (step_LPCloseOut c s (Some g)), (waitout_closeout c s g); assumption|reflexivity|].
    rewrite E, Nat.eqb_refl. dist_p E. rewrite M, B, Er. cbn. lia.
Qed.

Lemma bg_not_mergefail l : bg l = true -> l <> LMMergeFail.
Proof. intros B ->. discriminate B. Qed.

Lemma persist_stall_free s :
  inv c s -> invK c s -> c_ll c = true -> z_closed s = false ->
  z_mid s = true -> z_base s = false -> ~ pending s ->
  exists l s', bg l = true /\ l <> LMMergeFail /\ step c s l = Some s' /\
               mu_p s' < mu_p s /\ ~ pending s'.
Proof using cap_pos qcap_pos.
  intros I K Ll Cl M B NP. apply not_pending_calls in NP.
  destruct (persist_step s I K Ll Cl M B NP) as (l & s' & Bl & St & D & _).
  exists l, s'. split; [exact Bl|]. split; [exact (bg_not_mergefail l Bl)|]. split; [exact St|].
  split; [exact D|]. apply not_pending_calls. pose proof (bg_calls_le c s l s' St Bl). lia.
Qed.

Theorem no_persist_stall_partial s :
  z_mp s <> MHandover -> (forall g, z_mp s <> MWaitOut g) ->
  inv c s -> invK c s -> c_ll c = true -> z_closed s = false ->
  z_mid s = true -> z_base s = false -> ~ pending s ->
  exists l s', bg l = true /\ l <> LMMergeFail /\ step c s l = Some s' /\
               mu_p s' < mu_p s /\ ~ pending s'.
Proof using cap_pos qcap_pos. intros _ _. apply persist_stall_free. Qed.
End PersistStall.

Print Assumptions open_step.
Print Assumptions open_drain.
Print Assumptions close_step.
Print Assumptions close_drain.
Print Assumptions no_persist_stall_partial.
