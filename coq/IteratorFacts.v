(* IteratorFacts.v — the moss iterator model (Iterator.v) refines the
   specification iterator (a suffix of live_range).
   Each implementation (heap, iteratorSingle, bare lower-level iterator) is first
   related to the raw entries it has left, for either setting of IncludeDeletions:
   Next drops the head, SeekTo is seek_list of IteratorIncl.v.  The theorems without
   IncludeDeletions (Section Main) and with it (IteratorInclFacts.v) are read off that.
   Last: concrete inputs on which the iterator before the repair of optimize() differs
   from the specification, and the repaired one on the same inputs. *)
From Coq Require Import List NArith Bool Lia Arith.
From Moss Require Import Bytes BytesFacts Segment SegmentFacts Stack StackFacts Iterator IteratorIncl.

Lemma bleb_bltb_trans a b c : bleb a b = true -> bltb b c = true -> bltb a c = true.
Proof.
  intros H1 H2. apply bleb_true in H1. apply bltb_true in H2. apply bltb_true.
  exact (bcmp_le_lt_trans _ _ _ H1 H2).
Qed.

Lemma bltb_trans a b c : bltb a b = true -> bltb b c = true -> bltb a c = true.
Proof.
  intros H1 H2. apply bltb_true in H1. apply bltb_true in H2. apply bltb_true.
  exact (bcmp_trans _ _ _ H1 H2).
Qed.

Lemma bltb_or_bleb a b : bltb a b = true \/ bleb b a = true.
Proof. destruct (bltb a b) eqn:E; auto. right. now apply bltb_false. Qed.

Lemma nonempty_map {A B} (f : A -> B) l : nonempty (map f l) = nonempty l.
Proof. destruct l; reflexivity. Qed.

Lemma drop_lt_filter {A} x (L : list (bytes * A)) :
  asc (map fst L) -> drop_lt x L = filter (fun e => bleb x (fst e)) L.
Proof.
  induction L as [|e r IH]; intros H; auto.
  simpl drop_lt. destruct (bltb (fst e) x) eqn:E.
  - simpl. rewrite (proj2 (bleb_false _ _) E). apply IH. simpl in H. eapply asc_tail; eauto.
  - symmetry. apply filter_all. intros e' He'. apply bltb_false in E.
    apply bleb_trans with (fst e); auto. eapply sorted_head_le; eauto.
Qed.

Lemma drop_lt_all_ge {A} b (L : list (bytes * A)) :
  (forall e, In e L -> bleb b (fst e) = true) -> drop_lt b L = L.
Proof.
  destruct L as [|e L]; auto. intros H. simpl.
  rewrite (proj2 (bltb_false _ _)); auto. apply H. simpl; auto.
Qed.

Lemma drop_lt_self {A} (k : bytes) (a : A) t : drop_lt k ((k, a) :: t) = (k, a) :: t.
Proof. cbn [drop_lt fst]. now rewrite bltb_irrefl. Qed.

Lemma drop_lt_in {A} x (l : list (bytes * A)) e : In e (drop_lt x l) -> In e l.
Proof.
  induction l as [|a l IH]; auto. cbn [drop_lt].
  destruct (bltb (fst a) x); auto. intros H. right. auto.
Qed.

Lemma drop_lt_split {A} x (l : list (bytes * A)) : exists pre, l = pre ++ drop_lt x l.
Proof.
  induction l as [|a l [pre IH]]; [exists []; reflexivity|]. cbn [drop_lt].
  destruct (bltb (fst a) x).
  - exists (a :: pre). cbn [app]. now f_equal.
  - exists []. reflexivity.
Qed.

Lemma drop_lt_suffix {A} (pre : list (bytes * A)) e t x :
  asc (map fst (pre ++ e :: t)) -> bleb (fst e) x = true ->
  drop_lt x (pre ++ e :: t) = drop_lt x (e :: t).
Proof.
  induction pre as [|a pre IH]; intros Ha He; auto.
  change ((a :: pre) ++ e :: t) with (a :: (pre ++ e :: t)) in *.
  cbn [drop_lt].
  rewrite (bltb_bleb_trans _ (fst e) _); auto.
  - apply IH; auto. cbn [map] in Ha. eapply asc_tail; eauto.
  - eapply sorted_head_lt; [exact Ha|]. apply in_or_app. right. simpl; auto.
Qed.

Lemma drop_lt_map {A B} (g : bytes * A -> bytes * B) x l :
  (forall e, fst (g e) = fst e) -> drop_lt x (map g l) = map g (drop_lt x l).
Proof.
  intros Hg. induction l as [|e l IH]; auto. cbn [map drop_lt]. rewrite Hg.
  destruct (bltb (fst e) x); auto.
Qed.

Lemma skipn_lb s x : skipn (lower_bound s x) s = drop_lt x s.
Proof.
  induction s as [|[k o] r IH]; auto. cbn [lower_bound drop_lt fst].
  destruct (bltb k x); [exact IH|reflexivity].
Qed.

Lemma firstn_lb s x : asc (keys s) ->
  firstn (lower_bound s x) s = filter (fun e => bltb (fst e) x) s.
Proof.
  induction s as [|[k o] r IH]; intros H; auto.
  simpl lower_bound. destruct (bltb k x) eqn:E.
  - simpl. rewrite E. f_equal. apply IH. eapply asc_tail; eauto.
  - simpl firstn. symmetry. apply filter_none.
    intros e He. apply bltb_false. apply bltb_false in E.
    apply bleb_trans with k; auto. apply (sorted_head_le (k, o) r e H He).
Qed.

Lemma lb_mono s a b : bleb a b = true -> lower_bound s a <= lower_bound s b.
Proof.
  intros Hab. induction s as [|[k o] r IH]; simpl; auto.
  destruct (bltb k a) eqn:E.
  - rewrite (bltb_bleb_trans _ _ _ E Hab). lia.
  - lia.
Qed.

Lemma lb_le_length s x : lower_bound s x <= length s.
Proof. induction s as [|[k o] r IH]; simpl; [lia|]. destruct (bltb k x); lia. Qed.

Lemma lb_drop_lt s l e : lower_bound (drop_lt l s) e = lower_bound s e - lower_bound s l.
Proof.
  induction s as [|[k o] r IH]; auto.
  cbn [drop_lt lower_bound fst]. destruct (bltb k l) eqn:El.
  - destruct (bltb k e) eqn:Ee; [exact IH|].
    apply bltb_false in Ee. pose proof (bltb_bleb _ _ (bleb_bltb_trans _ _ _ Ee El)) as Hel.
    pose proof (lb_mono r e l Hel). lia.
  - rewrite Nat.sub_0_r. reflexivity.
Qed.

Lemma slice_filter lo hi s : asc (keys s) ->
  slice lo hi s = filter (fun e => in_range lo hi (fst e)) s.
Proof.
  intros H. unfold slice, sc_rest, seg_cursor; simpl. rewrite Nat.leb_refl.
  unfold in_range. destruct hi as [e|].
  - rewrite skipn_lb, <- lb_drop_lt, (drop_lt_filter _ s H).
    rewrite firstn_lb by (now apply (asc_map_filter fst)).
    apply filter_filter.
  - rewrite firstn_all2 by (rewrite skipn_length; lia).
    rewrite skipn_lb, (drop_lt_filter _ s H). apply filter_ext. intros x. now rewrite andb_true_r.
Qed.

Lemma strip_aux S E k1 k2 :
  bleb S k1 = true -> bltb k1 E = true -> bleb S k2 = true -> bltb k2 E = true ->
  bcmp (skipn (shared_prefix_len S E) k1) (skipn (shared_prefix_len S E) k2) = bcmp k1 k2.
Proof.
  revert E k1 k2. induction S as [|x S IH]; intros [|y E] k1 k2 H1 H2 H3 H4; simpl; auto.
  destruct (N.eqb x y) eqn:Exy; simpl; auto.
  apply N.eqb_eq in Exy; subst y.
  assert (Hk : forall k, bleb (x :: S) k = true -> bltb k (x :: E) = true ->
               exists k', k = x :: k' /\ bleb S k' = true /\ bltb k' E = true).
  { intros [|z k'] G1 G2; [discriminate|].
    unfold bleb, bltb in G1, G2. simpl in G1, G2.
    destruct (N.compare x z) eqn:C1; try discriminate.
    - apply N.compare_eq in C1; subst z. rewrite N.compare_refl in G2.
      exists k'. unfold bleb, bltb. auto.
    - rewrite N.compare_antisym, C1 in G2. simpl in G2. discriminate. }
  destruct (Hk k1 H1 H2) as [k1' [-> [A1 A2]]].
  destruct (Hk k2 H3 H4) as [k2' [-> [B1 B2]]].
  simpl. rewrite N.compare_refl. apply IH; auto.
Qed.

(* for keys inside [start,end) iterator.Less compares like bytes.Compare *)
Lemma C09_prefix_strip start end_ k1 k2 :
  in_range start end_ k1 = true -> in_range start end_ k2 = true ->
  cmp_strip (prefix_len start end_) k1 k2 = bcmp k1 k2.
Proof.
  unfold in_range, cmp_strip, prefix_len. intros H1 H2.
  apply andb_true_iff in H1. apply andb_true_iff in H2.
  destruct H1 as [A1 A2], H2 as [B1 B2].
  destruct start as [[|a s]|]; auto. destruct end_ as [[|b e]|]; auto.
  apply strip_aux; auto.
Qed.

Definition kf (P : bytes -> bool) : entry -> bool := fun e => P (fst e).

Lemma all_keys_filter P ss :
  all_keys (map (filter (kf P)) ss) = filter P (all_keys ss).
Proof.
  apply (asc_map_ext (fun k => k)); rewrite ?map_id.
  - apply all_keys_asc.
  - apply asc_filter, all_keys_asc.
  - intros x. rewrite filter_In, !all_keys_in. split.
    + intros [s [Hs Hx]]. apply in_map_iff in Hs. destruct Hs as [s0 [<- Hs0]].
      unfold kf in Hx. rewrite keys_filter in Hx. apply filter_In in Hx. destruct Hx; eauto.
    + intros [[s [Hs Hx]] HP]. exists (filter (kf P) s). split; [now apply in_map|].
      unfold kf. rewrite keys_filter. apply filter_In; auto.
Qed.

Lemma newest_filter P ss k :
  newest (map (filter (kf P)) ss) k = if P k then newest ss k else None.
Proof.
  induction ss as [|s r IH]; simpl; [destruct (P k); auto|].
  unfold kf at 1. rewrite find_filter. destruct (P k) eqn:E; auto.
  rewrite IH. reflexivity.
Qed.

Lemma nop_filter P ss k : P k = true -> nop (map (filter (kf P)) ss) k = nop ss k.
Proof. intros H. unfold nop. now rewrite newest_filter, H. Qed.

Lemma view_filter P ss : view (map (filter (kf P)) ss) = filter (kf P) (view ss).
Proof.
  unfold view. rewrite all_keys_filter.
  induction (all_keys ss) as [|k l IH]; simpl; auto.
  unfold kf at 2. simpl. destruct (P k) eqn:E; simpl; auto.
  rewrite IH. f_equal. now rewrite nop_filter.
Qed.

Lemma view_keys ss : keys (view ss) = all_keys ss.
Proof. unfold view, keys. rewrite map_map. simpl. apply map_id. Qed.

Lemma view_asc ss : asc (keys (view ss)).
Proof. rewrite view_keys. apply all_keys_asc. Qed.

Lemma view_in ss k o : In (k, o) (view ss) <-> newest ss k = Some o.
Proof.
  unfold view. rewrite in_map_iff. split.
  - intros [k' [E Hin]]. injection E as -> <-.
    apply newest_some_in_all_keys in Hin. unfold nop. destruct (newest ss k); congruence.
  - intros H. exists k. split.
    + unfold nop. now rewrite H.
    + apply newest_some_in_all_keys. congruence.
Qed.

Lemma find_view ss k : find (view ss) k = newest ss k.
Proof.
  destruct (newest ss k) as [o|] eqn:E.
  - apply find_NoDup_in; [apply asc_NoDup, view_asc|]. now apply view_in.
  - apply find_none_iff. rewrite view_keys. intros H.
    apply newest_some_in_all_keys in H. congruence.
Qed.

Definition all_asc (rem : list segment) : Prop := Forall (fun r => asc (keys r)) rem.

(* on the keys present, the stripped comparison is the real one *)
Definition keys_ok (pfx : nat) (rem : list segment) : Prop :=
  forall k1 k2, In k1 (all_keys rem) -> In k2 (all_keys rem) -> cmp_strip pfx k1 k2 = bcmp k1 k2.

Definition heap_ok (pfx : nat) (rem : list segment) : Prop := all_asc rem /\ keys_ok pfx rem.

Lemma all_keys_cons_in r rest k :
  In k (all_keys (r :: rest)) <-> In k (keys r) \/ In k (all_keys rest).
Proof. unfold all_keys; simpl. apply kunion_in. Qed.

Lemma keys_ok_tail pfx r rest : keys_ok pfx (r :: rest) -> keys_ok pfx rest.
Proof. intros H k1 k2 H1 H2. apply H; apply all_keys_cons_in; auto. Qed.

Lemma min_none_total pfx rem : min_cursor pfx rem = None <-> total rem = 0.
Proof.
  induction rem as [|r rest IH]; simpl; [tauto|].
  destruct r as [|e t]; simpl.
  - destruct (min_cursor pfx rest) as [[j e']|]; simpl.
    + split; [discriminate|]. intros H. apply IH in H. discriminate.
    + split; auto. intros _. now apply IH.
  - split; [|discriminate].
    destruct (min_cursor pfx rest) as [[j e']|]; simpl.
    + destruct (cmp_strip pfx (fst e) (fst e')); discriminate.
    + discriminate.
Qed.

Lemma total_zero_all_keys rem : total rem = 0 -> all_keys rem = [].
Proof.
  induction rem as [|r rest IH]; simpl; auto.
  destruct r; simpl; [|discriminate]. intros H. unfold all_keys in *. simpl. auto.
Qed.

Lemma total_zero_view rem : total rem = 0 -> view rem = [].
Proof. intros H. unfold view. now rewrite total_zero_all_keys. Qed.

Lemma kinsert_length k l : length (kinsert k l) <= S (length l).
Proof.
  induction l as [|a l IH]; simpl; auto. destruct (bcmp k a); simpl; lia.
Qed.

Lemma all_keys_length rem : length (all_keys rem) <= total rem.
Proof.
  induction rem as [|r rest IH]; [simpl; auto|].
  change (length (fold_right kinsert (all_keys rest) (keys r)) <= length r + total rest).
  unfold keys. induction r as [|e r IHr]; simpl; auto.
  pose proof (kinsert_length (fst e) (fold_right kinsert (all_keys rest) (map fst r))). lia.
Qed.

Lemma min_cursor_nth pfx rem i e : min_cursor pfx rem = Some (i, e) -> exists t, nth i rem [] = e :: t.
Proof.
  revert i. induction rem as [|r rest IH]; intros i; [discriminate|]. cbn [min_cursor].
  destruct (min_cursor pfx rest) as [[j e']|]; cbn [option_map fst snd].
  - destruct r as [|e0 t]; [|destruct (cmp_strip pfx (fst e0) (fst e'))];
      intros [= <- <-]; try (now exists t); now apply IH.
  - destruct r as [|e0 t]; intros [= <- <-]. now exists t.
Qed.

Lemma nth_in_all_keys (rem : list segment) i e t : nth i rem [] = e :: t -> In (fst e) (all_keys rem).
Proof.
  intros H. apply all_keys_in. exists (nth i rem []). split; [|rewrite H; now left].
  destruct (nth_in_or_default i rem []) as [G|G]; [exact G|]. rewrite G in H. discriminate.
Qed.

Lemma min_cursor_in pfx rem i e : min_cursor pfx rem = Some (i, e) -> In (fst e) (all_keys rem).
Proof. intros H. destruct (min_cursor_nth _ _ _ _ H) as [t A]. exact (nth_in_all_keys _ _ _ _ A). Qed.

Lemma all_asc_nth rem i : all_asc rem -> asc (keys (nth i rem [])).
Proof.
  intros H. destruct (nth_in_or_default i rem []) as [G|G]; [|rewrite G; constructor].
  unfold all_asc in H. rewrite Forall_forall in H. auto.
Qed.

Lemma all_keys_cons_ge r rest a :
  (forall k, In k (keys r) -> bleb a k = true) -> (forall k, In k (all_keys rest) -> bleb a k = true) ->
  forall k, In k (all_keys (r :: rest)) -> bleb a k = true.
Proof. intros H1 H2 k H. apply all_keys_cons_in in H. destruct H; auto. Qed.

Lemma min_cursor_spec pfx rem i k o :
  heap_ok pfx rem -> min_cursor pfx rem = Some (i, (k, o)) ->
  (forall k', In k' (all_keys rem) -> bleb k k' = true) /\
  (forall j, j < i -> find (nth j rem []) k = None).
Proof.
  revert i k o. induction rem as [|r rest IH]; intros i k o [Ha Hk]; [discriminate|]. cbn [min_cursor].
  inversion Ha as [|? ? Har Harest]; subst.
  assert (Hok' : heap_ok pfx rest) by (split; [exact Harest|exact (keys_ok_tail _ _ _ Hk)]).
  destruct r as [|[k0 o0] t].
  - destruct (min_cursor pfx rest) as [[j [k1 o1]]|] eqn:Em; cbn [option_map fst snd]; [|discriminate].
    intros [= <- <- <-]. destruct (IH j k1 o1 Hok' eq_refl) as [B C]. split.
    + apply all_keys_cons_ge; auto.
    + intros [|j'] Hj; [reflexivity|]. apply C. lia.
  - assert (B0 : forall k', In k' (keys ((k0, o0) :: t)) -> bleb k0 k' = true).
    { intros k' Hin. apply in_map_iff in Hin. destruct Hin as [e [<- He]].
      exact (sorted_head_le (k0, o0) t e Har He). }
    destruct (min_cursor pfx rest) as [[j [k1 o1]]|] eqn:Em; cbn [option_map fst snd].
    + destruct (IH j k1 o1 Hok' eq_refl) as [B C].
      rewrite (Hk k0 k1)
        by (apply all_keys_cons_in; solve [left; now left|right; exact (min_cursor_in _ _ _ _ Em)]).
      destruct (bcmp k0 k1) eqn:Ec; intros [= <- <- <-].
      1, 2: split; [|intros j' Hj'; lia]; apply all_keys_cons_ge; auto;
        intros k' Hk1; apply bleb_trans with k1; auto; apply bleb_true; congruence.
      apply bcmp_gt_lt, bltb_true in Ec. split.
      * apply all_keys_cons_ge; auto. intros k' Hk0. apply bleb_trans with k0; auto.
        now apply bltb_bleb.
      * intros [|j'] Hj; cbn [nth]; [|apply C; lia]. apply find_none_iff. intros Hin.
        apply B0 in Hin. rewrite (proj2 (bleb_false _ _) Ec) in Hin. discriminate.
    + intros [= <- <- <-]. split; [|intros j' Hj'; lia]. apply all_keys_cons_ge; auto.
      apply min_none_total in Em. rewrite (total_zero_all_keys _ Em). intros k' [].
Qed.

Lemma newest_nth (S : list segment) i k o :
  (forall j, j < i -> find (nth j S []) k = None) ->
  find (nth i S []) k = Some o -> newest S k = Some o.
Proof.
  revert S. induction i as [|i IH]; intros [|s r] H1 H2; simpl in *; try discriminate.
  - now rewrite H2.
  - rewrite (H1 0) by lia. apply IH; auto. intros j Hj. apply (H1 (Datatypes.S j)). lia.
Qed.

Lemma seg_head_split (L : segment) k o :
  asc (keys L) -> In (k, o) L -> (forall e, In e L -> bleb k (fst e) = true) ->
  L = (k, o) :: filter (kf (bltb k)) L.
Proof.
  destruct L as [|[k0 o0] t]; intros Ha Hin Hle; [destruct Hin|].
  destruct Hin as [E|Hin].
  - injection E as -> ->. simpl. unfold kf at 1; simpl. rewrite bltb_irrefl. f_equal.
    symmetry. apply filter_all. intros e He. exact (sorted_head_lt (k, o) t e Ha He).
  - exfalso. pose proof (sorted_head_lt (k0, o0) t _ Ha Hin) as G.
    pose proof (bltb_bleb_trans _ _ _ G (Hle (k0, o0) (or_introl eq_refl))) as G3.
    rewrite bltb_irrefl in G3. discriminate.
Qed.

Definition gtf (k : bytes) : segment -> segment := filter (kf (bltb k)).

Lemma view_min pfx rem i k o :
  heap_ok pfx rem -> min_cursor pfx rem = Some (i, (k, o)) ->
  view rem = (k, o) :: view (map (gtf k) rem).
Proof.
  intros Hok Hm. destruct (min_cursor_spec _ _ _ _ _ Hok Hm) as [B C].
  destruct (min_cursor_nth _ _ _ _ Hm) as [t A].
  unfold gtf. rewrite view_filter. apply seg_head_split.
  - apply view_asc.
  - apply view_in. apply (newest_nth _ i); auto. rewrite A. simpl. now rewrite beqb_refl.
  - intros e He. apply B. rewrite <- view_keys. now apply in_map.
Qed.

Lemma advance_gtf i rem k o t b :
  nth i rem [] = (k, o) :: t -> bleb k b = true ->
  map (gtf b) (advance i rem) = map (gtf b) rem.
Proof.
  revert i. induction rem as [|r rest IH]; intros [|i] H Hb; simpl in *; auto.
  - subst r. simpl. f_equal. unfold gtf at 2. simpl. unfold kf at 1. simpl.
    now rewrite (proj2 (bltb_false _ _) Hb).
  - f_equal. apply IH; auto.
Qed.

Lemma advance_total i rem e t :
  nth i rem [] = e :: t -> S (total (advance i rem)) = total rem.
Proof.
  revert i. induction rem as [|r rest IH]; intros [|i] H; simpl in *; try discriminate.
  - subst r. simpl. reflexivity.
  - rewrite <- (IH i H). lia.
Qed.

Lemma asc_keys_tl (r : segment) : asc (keys r) -> asc (keys (tl r)).
Proof. destruct r; simpl; auto. apply asc_tail. Qed.

Lemma advance_asc i rem : all_asc rem -> all_asc (advance i rem).
Proof.
  revert i. induction rem as [|r rest IH]; intros [|i] H; simpl; auto;
  inversion H; subst; constructor; auto.
  - now apply asc_keys_tl.
  - now apply IH.
Qed.

Lemma advance_keys_sub i rem k : In k (all_keys (advance i rem)) -> In k (all_keys rem).
Proof.
  revert i. induction rem as [|r rest IH]; intros [|i] H; simpl in *; auto.
  - apply all_keys_cons_in in H. apply all_keys_cons_in. destruct H as [H|H]; auto.
    left. destruct r; simpl in *; auto.
  - apply all_keys_cons_in in H. apply all_keys_cons_in. destruct H as [H|H]; eauto.
Qed.

Lemma keys_ok_sub pfx rem rem' :
  (forall k, In k (all_keys rem') -> In k (all_keys rem)) -> keys_ok pfx rem -> keys_ok pfx rem'.
Proof. intros H Hk k1 k2 H1 H2. apply Hk; auto. Qed.

Lemma heap_ok_advance pfx i rem : heap_ok pfx rem -> heap_ok pfx (advance i rem).
Proof.
  intros [Ha Hk]. split; [now apply advance_asc|].
  apply (keys_ok_sub pfx rem); auto. intros k. apply advance_keys_sub.
Qed.

Lemma gtf_id k rem : (forall k', In k' (all_keys rem) -> bltb k k' = true) -> map (gtf k) rem = rem.
Proof.
  induction rem as [|r rest IH]; intros H; simpl; auto. f_equal.
  - apply filter_all. intros e He. unfold kf. apply H. apply all_keys_cons_in. left.
    apply in_map; auto.
  - apply IH. intros k' Hk'. apply H. apply all_keys_cons_in. auto.
Qed.

Lemma all_asc_filter P rem : all_asc rem -> all_asc (map (filter (kf P)) rem).
Proof.
  intros H. apply Forall_map. eapply Forall_impl; [|exact H].
  intros r. apply (asc_map_filter fst).
Qed.

Lemma filter_keys_sub P rem k : In k (all_keys (map (filter (kf P)) rem)) -> In k (all_keys rem).
Proof. rewrite all_keys_filter. intros H. apply filter_In in H. tauto. Qed.

Lemma heap_ok_filter pfx P rem : heap_ok pfx rem -> heap_ok pfx (map (filter (kf P)) rem).
Proof.
  intros [Ha Hk]. split; [now apply all_asc_filter|].
  apply (keys_ok_sub pfx rem); auto. intros k. apply filter_keys_sub.
Qed.

Lemma nth_cons_total i (rem : list segment) e t : nth i rem [] = e :: t -> 1 <= total rem.
Proof.
  revert i. induction rem as [|r rest IH]; intros [|i] H; simpl in *; try discriminate.
  - subst; simpl; lia.
  - specialize (IH i H). lia.
Qed.

Lemma view_nonempty rem : nonempty (view rem) = negb (Nat.eqb (total rem) 0).
Proof.
  unfold view. rewrite nonempty_map. destruct (min_cursor 0 rem) as [[i e]|] eqn:Em.
  - pose proof (min_cursor_in _ _ _ _ Em) as Hin.
    destruct (min_cursor_nth _ _ _ _ Em) as [t A]. apply nth_cons_total in A.
    destruct (all_keys rem); [destruct Hin|]. destruct (total rem); [lia|reflexivity].
  - apply min_none_total in Em. now rewrite (total_zero_all_keys _ Em), Em.
Qed.

Definition hd_vis (incl : bool) (s : segment) : Prop :=
  match s with (_, ODel) :: _ => incl = true | _ => True end.

Lemma hd_vis_cons incl (k : bytes) (o : op) (s : list (bytes * op)) :
  hd_vis incl ((k, o) :: s) -> vis incl ((k, o) :: s) = (k, o) :: vis incl s.
Proof.
  unfold vis. simpl. destruct o; simpl; rewrite ?orb_true_r; auto.
  intros ->. reflexivity.
Qed.

Lemma hd_vis_nonempty incl (s : segment) : hd_vis incl s -> nonempty (vis incl s) = nonempty s.
Proof. destruct s as [|[k o] s]; auto. intros H. now rewrite hd_vis_cons. Qed.

Lemma hd_vis_hd incl (s : segment) : hd_vis incl s -> hd_error (vis incl s) = hd_error s.
Proof. destruct s as [|[k o] s]; auto. intros H. now rewrite hd_vis_cons. Qed.

Lemma vis_tl_hd incl (s : segment) : hd_vis incl s -> vis incl (tl s) = tl (vis incl s).
Proof. destruct s as [|[k o] s]; auto. intros H. now rewrite hd_vis_cons. Qed.

Lemma vis_cons_del s k : vis false ((k, ODel) :: s) = vis false s.
Proof. reflexivity. Qed.

Definition head_ok (incl : bool) (pfx : nat) (rem : list segment) : Prop :=
  match min_cursor pfx rem with
  | Some (_, (_, ODel)) => incl = true
  | _ => True
  end.

Lemma head_ok_view incl pfx rem : heap_ok pfx rem -> (head_ok incl pfx rem <-> hd_vis incl (view rem)).
Proof.
  intros Hok. unfold head_ok.
  destruct (min_cursor pfx rem) as [[i [k o]]|] eqn:Em.
  - rewrite (view_min _ _ _ _ _ Hok Em). simpl. tauto.
  - apply min_none_total in Em. rewrite (total_zero_view _ Em). simpl. tauto.
Qed.

(* the loop of iterator.Next leaves exactly the entries above some key b >= lastK, and what
   it stepped over beyond lastK were deletions *)
Lemma next_loop_spec incl pfx fuel : forall rem k,
  heap_ok pfx rem -> total rem <= fuel ->
  (exists i o, min_cursor pfx rem = Some (i, (k, o))) ->
  exists b,
    bleb k b = true /\
    fst (next_loop incl pfx fuel k rem) = map (gtf b) rem /\
    vis incl (view (fst (next_loop incl pfx fuel k rem))) = vis incl (view (map (gtf k) rem)) /\
    snd (next_loop incl pfx fuel k rem) = negb (Nat.eqb (total (fst (next_loop incl pfx fuel k rem))) 0) /\
    head_ok incl pfx (fst (next_loop incl pfx fuel k rem)).
Proof.
  induction fuel as [|f IH]; intros rem k Hok Hf [i [o Hm]];
    destruct (min_cursor_nth _ _ _ _ Hm) as [t A]; pose proof (nth_cons_total _ _ _ _ A) as Ht; [lia|].
  destruct (min_cursor_spec _ _ _ _ _ Hok Hm) as [B _].
  cbn [next_loop]. rewrite Hm. set (rem1 := advance i rem).
  assert (Hok1 : heap_ok pfx rem1) by (now apply heap_ok_advance).
  assert (Hf1 : total rem1 <= f) by (pose proof (advance_total _ _ _ _ A) as G; fold rem1 in G; lia).
  assert (Hg : forall b, bleb k b = true -> map (gtf b) rem1 = map (gtf b) rem)
    by (intros b; apply (advance_gtf _ _ _ _ _ _ A)).
  assert (Hid : (forall k', In k' (all_keys rem1) -> bltb k k' = true) -> rem1 = map (gtf k) rem).
  { intros H. rewrite <- (Hg k (bleb_refl k)). symmetry. now apply gtf_id. }
  destruct (min_cursor pfx rem1) as [[i1 [k1 o1]]|] eqn:Em1.
  - destruct (min_cursor_spec _ _ _ _ _ Hok1 Em1) as [B1 _].
    assert (Hkk1 : bleb k k1 = true).
    { apply B. apply (advance_keys_sub i). exact (min_cursor_in _ _ _ _ Em1). }
    destruct (beqb k1 k) eqn:Eb.
    + apply beqb_true in Eb. subst k1.
      destruct (IH rem1 k Hok1 Hf1 (ex_intro _ i1 (ex_intro _ o1 Em1))) as [b [Hb [R1 [R2 [R3 R4]]]]].
      exists b. split; auto. split; [rewrite R1; auto|]. split; auto.
      rewrite R2. now rewrite (Hg k (bleb_refl k)).
    + assert (Hlt : bltb k k1 = true).
      { destruct (bltb k k1) eqn:E; auto. apply bltb_false in E.
        rewrite (bleb_antisym _ _ Hkk1 E), beqb_refl in Eb. discriminate. }
      specialize (Hid (fun k' Hk' => bltb_bleb_trans _ _ _ Hlt (B1 k' Hk'))).
      destruct (negb incl && is_del o1) eqn:Ed.
      * apply andb_true_iff in Ed. destruct Ed as [Ei Eo].
        apply negb_true_iff in Ei. subst incl. destruct o1; try discriminate.
        destruct (IH rem1 k1 Hok1 Hf1 (ex_intro _ i1 (ex_intro _ ODel Em1)))
          as [b [Hb [R1 [R2 [R3 R4]]]]].
        pose proof (bleb_trans _ _ _ Hkk1 Hb) as Hkb.
        exists b. split; auto. split; [rewrite R1; now apply Hg|]. split; auto.
        rewrite R2, <- Hid, (view_min _ _ _ _ _ Hok1 Em1). now rewrite vis_cons_del.
      * exists k. split; [apply bleb_refl|]. cbn [fst snd].
        split; auto. split; [now rewrite Hid|]. split.
        -- destruct (min_cursor_nth _ _ _ _ Em1) as [t1 A1]. apply nth_cons_total in A1.
           destruct (total rem1); [lia|reflexivity].
        -- unfold head_ok. rewrite Em1. destruct o1; auto.
           destruct incl; auto; discriminate.
  - apply min_none_total in Em1. cbn [fst snd].
    assert (Hid' : rem1 = map (gtf k) rem).
    { apply Hid. rewrite (total_zero_all_keys _ Em1). intros k' []. }
    exists k. split; [apply bleb_refl|]. split; auto. split; [now rewrite Hid'|].
    split; [now rewrite Em1|].
    unfold head_ok. apply (proj2 (min_none_total pfx rem1)) in Em1. now rewrite Em1.
Qed.

Lemma heap_next_spec incl pfx rem :
  heap_ok pfx rem -> hd_vis incl (view rem) ->
  exists b,
    fst (heap_next incl pfx rem) = map (gtf b) rem /\
    vis incl (view (fst (heap_next incl pfx rem))) = tl (vis incl (view rem)) /\
    snd (heap_next incl pfx rem) = nonempty (vis incl (view (fst (heap_next incl pfx rem)))) /\
    hd_vis incl (view (fst (heap_next incl pfx rem))).
Proof.
  intros Hok Hh. unfold heap_next.
  destruct (min_cursor pfx rem) as [[i [k o]]|] eqn:Em.
  - destruct (next_loop_spec incl pfx (total rem) rem k Hok (le_n _)
                (ex_intro _ i (ex_intro _ o Em))) as [b [Hb [R1 [R2 [R3 R4]]]]].
    assert (Hh' : hd_vis incl (view (fst (next_loop incl pfx (total rem) k rem)))).
    { apply (head_ok_view incl pfx); auto. rewrite R1. now apply heap_ok_filter. }
    exists b. split; auto. split; [|split; auto].
    + rewrite R2. rewrite (view_min _ _ _ _ _ Hok Em) in Hh |- *.
      now rewrite (hd_vis_cons _ _ _ _ Hh).
    + now rewrite R3, (hd_vis_nonempty _ _ Hh'), view_nonempty.
  - apply min_none_total in Em. exists []. cbn [fst snd].
    split.
    + symmetry. apply gtf_id. rewrite (total_zero_all_keys _ Em). intros k' [].
    + rewrite (total_zero_view _ Em). simpl. auto.
Qed.

Lemma find_ll_seg l k : find (ll_seg l) k = option_map OSet (assoc l k).
Proof.
  induction l as [|[k' v] l IH]; simpl; auto.
  destruct (beqb k' k); auto.
Qed.

Section Bridge.
  Variable fm : bytes -> value -> bytes -> value.

  Lemma sget_ll_seg l k : sget fm [ll_seg l] no_below k = assoc l k.
  Proof. simpl. rewrite find_ll_seg. destruct (assoc l k); reflexivity. Qed.

  Lemma older_bridge segs ll n k : n <= length segs ->
    sget fm (skipn n (with_ll segs ll)) no_below k = sget fm (skipn n segs) (ll_get ll) k.
  Proof.
    intros Hn. destruct ll as [l|]; simpl.
    - rewrite skipn_app. replace (n - length segs) with 0 by lia. simpl.
      rewrite sget_app. apply sget_ext. apply sget_ll_seg.
    - apply sget_ext. reflexivity.
  Qed.

  Lemma full_get_bridge cfg k : full_get fm cfg k = sget fm (all_segs cfg) no_below k.
  Proof.
    unfold full_get, all_segs. symmetry.
    apply (older_bridge (c_segs cfg) (c_ll cfg) 0 k). lia.
  Qed.

  Lemma sget_nth (S : list segment) below i k o :
    (forall j, j < i -> find (nth j S []) k = None) ->
    find (nth i S []) k = Some o ->
    sget fm S below k = apply_op fm k (sget fm (skipn (Datatypes.S i) S) below k) o.
  Proof.
    revert S. induction i as [|i IH]; intros [|s r] H1 H2; simpl in H2; try discriminate.
    - simpl. now rewrite H2.
    - assert (H0 : find s k = None) by (apply (H1 0); lia).
      simpl sget. rewrite H0. rewrite (IH r); auto.
      intros j Hj. apply (H1 (Datatypes.S j)). lia.
  Qed.
End Bridge.

Definition upclosed (R P : bytes -> bool) : Prop :=
  (forall k, P k = true -> R k = true) /\
  (forall k k', P k = true -> bleb k k' = true -> R k' = true -> P k' = true).

Lemma map_filter_filter (P Q : bytes -> bool) (ss : list segment) :
  map (filter (kf Q)) (map (filter (kf P)) ss) = map (filter (kf (fun k => P k && Q k))) ss.
Proof.
  rewrite map_map. apply map_ext. intros s. unfold kf. apply filter_filter.
Qed.

Lemma keys_ok_range lo hi rem :
  (forall k, In k (all_keys rem) -> in_range lo hi k = true) -> keys_ok (prefix_len lo hi) rem.
Proof. intros H k1 k2 H1 H2. apply C09_prefix_strip; auto. Qed.

Lemma in_range_upclosed lo hi : upclosed (in_range lo hi) (in_range lo hi).
Proof. split; auto. Qed.

Lemma upclosed_and R P Q : upclosed R P ->
  (forall k k', Q k = true -> bleb k k' = true -> Q k' = true) -> upclosed R (fun k => P k && Q k).
Proof.
  intros [H1 H2] HQ. split.
  - intros k H. apply andb_true_iff in H. apply H1. tauto.
  - intros k k' H Hle HR. apply andb_true_iff in H. destruct H as [HP Hb].
    apply andb_true_iff. split; [exact (H2 k k' HP Hle HR)|exact (HQ k k' Hb Hle)].
Qed.

Lemma upclosed_gt R P b : upclosed R P -> upclosed R (fun k => P k && bltb b k).
Proof. intros H. apply upclosed_and; [exact H|]. intros k k'. apply bltb_bleb_trans. Qed.

Lemma in_range_lo_ge start end_ x k :
  bleb (lo_key start) x = true -> in_range (Some x) end_ k = true -> in_range start end_ k = true.
Proof.
  unfold in_range. simpl. intros H H1. apply andb_true_iff in H1. destruct H1 as [A B].
  apply andb_true_iff. split; auto. now apply bleb_trans with x.
Qed.

Lemma upclosed_restart start end_ x P :
  bleb (lo_key start) x = true ->
  upclosed (in_range (Some x) end_) P -> upclosed (in_range start end_) P.
Proof.
  intros Hx [H1 H2]. split.
  - intros k Hk. eapply in_range_lo_ge; eauto.
  - intros k k' HP Hle HR. apply (H2 k k' HP Hle).
    apply H1 in HP. unfold in_range in *. cbn [lo_key] in *.
    apply andb_true_iff in HP. apply andb_true_iff in HR. apply andb_true_iff.
    split; [|tauto]. apply bleb_trans with k; tauto.
Qed.

Definition cfg_ok (cfg : config) : Prop := all_asc (all_segs cfg).

Lemma slices_filter cfg lo : cfg_ok cfg ->
  map (slice lo (c_end cfg)) (all_segs cfg)
  = map (filter (kf (in_range lo (c_end cfg)))) (all_segs cfg).
Proof.
  intros H. apply map_ext_in. intros s Hs. apply slice_filter.
  unfold cfg_ok, all_asc in H. rewrite Forall_forall in H. auto.
Qed.

Lemma heap_start_spec cfg lo : cfg_ok cfg ->
  exists P,
    heap_start cfg lo = map (filter (kf P)) (all_segs cfg) /\
    upclosed (in_range lo (c_end cfg)) P /\
    hd_vis (c_incl cfg) (view (heap_start cfg lo)) /\
    vis (c_incl cfg) (view (heap_start cfg lo))
    = vis (c_incl cfg) (filter (kf (in_range lo (c_end cfg))) (view (all_segs cfg))).
Proof.
  intros Hc. unfold heap_start. rewrite (slices_filter cfg lo Hc).
  set (R := in_range lo (c_end cfg)).
  set (rem0 := map (filter (kf R)) (all_segs cfg)).
  set (pfx := prefix_len lo (c_end cfg)).
  assert (Hok : heap_ok pfx rem0).
  { split; [apply all_asc_filter; exact Hc|]. apply keys_ok_range. intros k Hin.
    unfold rem0 in Hin. rewrite all_keys_filter in Hin. apply filter_In in Hin. tauto. }
  assert (Hbase : forall incl, head_ok incl pfx rem0 ->
            exists P, rem0 = map (filter (kf P)) (all_segs cfg) /\ upclosed R P /\
                      hd_vis incl (view rem0) /\
                      vis incl (view rem0) = vis incl (filter (kf R) (view (all_segs cfg)))).
  { intros incl Hh. exists R. split; auto. split; [apply in_range_upclosed|].
    split; [now apply (head_ok_view incl pfx)|]. unfold rem0. now rewrite view_filter. }
  destruct (c_incl cfg) eqn:Ei.
  { apply Hbase. unfold head_ok. destruct (min_cursor pfx rem0) as [[i [k []]]|]; auto. }
  destruct (min_cursor pfx rem0) as [[i [k o]]|] eqn:Em.
  2: { apply Hbase. unfold head_ok. now rewrite Em. }
  destruct o as [v| |v]; try (apply Hbase; unfold head_ok; now rewrite Em).
  unfold heap_next. rewrite Em.
  destruct (next_loop_spec false pfx (total rem0) rem0 k Hok (le_n _)
              (ex_intro _ i (ex_intro _ ODel Em))) as [b [Hb [R1 [R2 [R3 R4]]]]].
  exists (fun k' => R k' && bltb b k'). split; [|split; [|split]].
  - rewrite R1. unfold rem0, gtf. apply map_filter_filter.
  - apply upclosed_gt, in_range_upclosed.
  - apply (head_ok_view false pfx); auto. rewrite R1. now apply heap_ok_filter.
  - rewrite R2. rewrite <- (vis_cons_del (view (map (gtf k) rem0)) k).
    rewrite <- (view_min _ _ _ _ _ Hok Em). unfold rem0. now rewrite view_filter.
Qed.

Lemma filter_map_fst {A B} (f : A -> B) (g : A -> bytes) (h : B -> bytes) (P : bytes -> bool) l :
  (forall a, h (f a) = g a) ->
  filter (fun b => P (h b)) (map f l) = map f (filter (fun a => P (g a)) l).
Proof.
  intros H. induction l as [|a l IH]; simpl; auto.
  rewrite H. destruct (P (g a)); simpl; now rewrite IH.
Qed.

Lemma vis_filter incl (P : entry -> bool) s : vis incl (filter P s) = filter P (vis incl s).
Proof.
  unfold vis. rewrite !filter_filter. apply filter_ext. intros e. apply andb_comm.
Qed.

Lemma vis_true (s : segment) : vis true s = s.
Proof. apply filter_all. reflexivity. Qed.

Lemma vis_length incl s : length (vis incl s) <= length s.
Proof.
  unfold vis. induction s as [|a l IH]; simpl; auto.
  destruct (incl || negb (is_del (snd a))); simpl; lia.
Qed.

Lemma vis_asc incl s : asc (keys s) -> asc (keys (vis incl s)).
Proof. apply (asc_map_filter fst). Qed.

Lemma vis_live s e : In e (vis false s) -> is_del (snd e) = false.
Proof. unfold vis. intros H. apply filter_In in H. now apply negb_true_iff. Qed.

Lemma drop_lt_vis incl x s : asc (keys s) -> drop_lt x (vis incl s) = vis incl (drop_lt x s).
Proof.
  intros H. rewrite (drop_lt_filter x s H), vis_filter. apply drop_lt_filter. now apply vis_asc.
Qed.

Lemma seek_bound_ge start x : bleb (lo_key start) (seek_bound start x) = true.
Proof.
  unfold seek_bound. destruct start as [s|]; simpl; [|apply bleb_nil].
  destruct (bltb x s) eqn:E; [apply bleb_refl|now apply bltb_false].
Qed.

Lemma seek_bound_id start x : bleb (lo_key start) x = true -> seek_bound start x = x.
Proof.
  unfold seek_bound. destruct start as [s|]; simpl; auto.
  intros H. destruct (bltb x s) eqn:E; auto.
  pose proof (bltb_bleb_trans _ _ _ E H) as G. rewrite bltb_irrefl in G. discriminate.
Qed.

Lemma seek_bound_x_le start x : bleb x (seek_bound start x) = true.
Proof.
  unfold seek_bound. destruct start as [s|]; [|apply bleb_refl].
  destruct (bltb x s) eqn:E; [now apply bltb_bleb|apply bleb_refl].
Qed.

Lemma drop_lt_seek_bound {A} start x (L : list (bytes * A)) :
  (forall e, In e L -> bleb (lo_key start) (fst e) = true) ->
  drop_lt (seek_bound start x) L = drop_lt x L.
Proof.
  intros HL. unfold seek_bound. destruct start as [s|]; auto.
  destruct (bltb x s) eqn:E; auto. rewrite !drop_lt_all_ge; auto.
  intros e He. apply bltb_bleb. exact (bltb_bleb_trans _ _ _ E (HL e He)).
Qed.

Lemma bleb_nil_false k x : bltb k x = true -> bleb x [] = false.
Proof.
  intros H. destruct (bleb x []) eqn:E; auto.
  pose proof (bleb_antisym _ _ E (bleb_nil x)) as ->.
  pose proof (bltb_bleb_trans _ _ _ H (bleb_nil k)) as G. rewrite bltb_irrefl in G. discriminate.
Qed.

Section ListFacts.
  Context {A : Type}.
  Variable isdel : A -> bool.

  Lemma walk_fuel_irrel : forall n m x (l : list (bytes * A)),
    length l < n -> length l < m -> walk isdel n x l = walk isdel m x l.
  Proof.
    induction n as [|n IH]; intros m x l Hn Hm; [lia|].
    destruct m as [|m]; [lia|].
    destruct l as [|[k a] t]; cbn [walk]; auto.
    destruct (negb (isdel a) && bleb x k); auto.
    destruct t as [|e t']; auto. apply IH; cbn [length] in *; lia.
  Qed.

  Lemma walk_naive_fuel tries n x (l : list (bytes * A)) : length l <= n ->
    walk isdel (naive_fuel tries n) x l = walk isdel (walk_fuel tries l) x l.
  Proof.
    intros H. unfold naive_fuel, walk_fuel. destruct (Nat.eqb tries 0); auto.
    apply walk_fuel_irrel; lia.
  Qed.

  Lemma walk_res : forall n x (l : list (bytes * A)),
    match snd (walk isdel n x l) with
    | NOk => fst (walk isdel n x l) <> []
    | NDone => fst (walk isdel n x l) = []
    | NMax => True
    end.
  Proof.
    induction n as [|n IH]; intros x l; cbn [walk]; [exact I|].
    destruct l as [|[k a] t]; [reflexivity|].
    destruct (negb (isdel a) && bleb x k); [cbn [fst snd]; discriminate|].
    destruct t as [|e t']; [reflexivity|]. apply IH.
  Qed.

  (* a walk that does not give up stops at the first live entry at or after x *)
  Lemma walk_first_live : forall n x (l : list (bytes * A)),
    snd (walk isdel n x l) <> NMax -> fst (walk isdel n x l) = first_live_ge isdel x l.
  Proof.
    induction n as [|n IH]; intros x l; cbn [walk]; [cbn [snd]; congruence|].
    destruct l as [|[k a] t]; [reflexivity|]. cbn [first_live_ge].
    destruct (negb (isdel a) && bleb x k); [reflexivity|].
    destruct t as [|e t']; [reflexivity|]. apply IH.
  Qed.

  (* with a budget of at least the number of entries left it never gives up *)
  Lemma walk_enough : forall n x (l : list (bytes * A)),
    0 < n -> length l <= n -> snd (walk isdel n x l) <> NMax.
  Proof.
    induction n as [|n IH]; intros x l Hn Hl; [lia|]. cbn [walk].
    destruct l as [|[k a] t]; [cbn [snd]; discriminate|].
    destruct (negb (isdel a) && bleb x k); [cbn [snd]; discriminate|].
    destruct t as [|e t']; [cbn [snd]; discriminate|].
    apply IH; cbn [length] in *; lia.
  Qed.

  Lemma first_live_all_ge x (l : list (bytes * A)) :
    (forall e, In e l -> bleb x (fst e) = true) -> first_live_ge isdel x l = skip_dels isdel l.
  Proof.
    induction l as [|[k a] t IH]; intros H; auto. cbn [first_live_ge skip_dels].
    pose proof (H (k, a) (or_introl eq_refl)) as Hk. cbn [fst] in Hk. rewrite Hk, andb_true_r.
    destruct (isdel a); cbn [negb]; auto. apply IH. intros e He. apply H. now right.
  Qed.

  (* on an ascending list: the natural seek, then skip the leading deletions *)
  Lemma first_live_sorted x (l : list (bytes * A)) : asc (map fst l) ->
    first_live_ge isdel x l = skip_dels isdel (drop_lt x l).
  Proof.
    induction l as [|[k a] t IH]; intros Ha; auto.
    cbn [drop_lt fst]. destruct (bltb k x) eqn:E.
    - cbn [first_live_ge]. rewrite (proj2 (bleb_false _ _) E), andb_false_r.
      apply IH. cbn [map] in Ha. eapply asc_tail; eauto.
    - apply first_live_all_ge. intros e He. apply bltb_false in E.
      apply bleb_trans with k; auto. apply (sorted_head_le (k, a) t e Ha He).
  Qed.

  Lemma skip_dels_live (l : list (bytes * A)) : hd_isdel isdel l = false -> skip_dels isdel l = l.
  Proof. destruct l as [|[k a] t]; auto. cbn [hd_isdel skip_dels]. now intros ->. Qed.

  Lemma fwd_onto_del_nodel x (l : list (bytes * A)) :
    (forall e, In e l -> isdel (snd e) = false) -> fwd_onto_del isdel x l = false.
  Proof.
    intros H. destruct l as [|[k a] t]; auto. cbn [fwd_onto_del].
    assert (G : hd_isdel isdel (drop_lt x ((k, a) :: t)) = false).
    { destruct (drop_lt x ((k, a) :: t)) as [|[k' a'] t'] eqn:E; auto. cbn [hd_isdel].
      apply (H (k', a')). apply (drop_lt_in x). rewrite E. simpl; auto. }
    rewrite G. apply andb_false_r.
  Qed.

  Lemma seek_list_forward start tries (full : list (bytes * A)) x k a t :
    isdel a = false -> bcmp x k = Gt ->
    seek_list isdel start tries full x ((k, a) :: t)
    = match walk isdel (walk_fuel tries ((k, a) :: t)) x ((k, a) :: t) with
      | (_, NMax) => drop_lt (seek_bound start x) full
      | (l', _) => l'
      end.
  Proof. intros H1 H2. unfold seek_list. cbv zeta. now rewrite H1, H2. Qed.

  Lemma seek_list_natural start tries (full : list (bytes * A)) x l pre :
    asc (map fst full) -> full = pre ++ l ->
    (forall e, In e full -> bleb (lo_key start) (fst e) = true) ->
    fwd_onto_del isdel x l = false ->
    seek_list isdel start tries full x l = drop_lt (seek_bound start x) full.
  Proof.
    intros Ha Hf Hlo Hfw. unfold seek_list. cbv zeta.
    destruct l as [|[k a] t]; [reflexivity|].
    destruct (isdel a) eqn:Ed; [reflexivity|].
    assert (Hk : bleb (lo_key start) k = true).
    { apply (Hlo (k, a)). rewrite Hf. apply in_or_app. right. simpl; auto. }
    assert (Hl : asc (map fst ((k, a) :: t))).
    { rewrite Hf, map_app in Ha. eapply asc_app_r; eauto. }
    rewrite Hf in Ha.
    destruct (bcmp x k) eqn:Ec; [| reflexivity |].
    - apply bcmp_eq in Ec. subst x. rewrite (seek_bound_id _ _ Hk), Hf.
      rewrite drop_lt_suffix; [now rewrite drop_lt_self|exact Ha|apply bleb_refl].
    - assert (Hlt : bltb k x = true) by (apply bltb_true; now apply bcmp_gt_lt).
      assert (Hkx : bleb k x = true) by (now apply bltb_bleb).
      rewrite (seek_bound_id start x) by (now apply bleb_trans with k).
      cbn [fwd_onto_del] in Hfw. rewrite Ed, Hlt in Hfw. cbn [negb andb] in Hfw.
      pose proof (walk_first_live (walk_fuel tries ((k, a) :: t)) x ((k, a) :: t)) as Hw.
      rewrite (first_live_sorted x _ Hl), (skip_dels_live _ Hfw) in Hw.
      rewrite Hf, (drop_lt_suffix pre (k, a) t x Ha Hkx).
      destruct (walk isdel (walk_fuel tries ((k, a) :: t)) x ((k, a) :: t)) as [l' r].
      cbn [fst snd] in Hw. destruct r; try reflexivity; apply Hw; discriminate.
  Qed.
End ListFacts.

Definition iterates {S : Type} (inv : S -> Prop) (left : S -> segment)
           (cur : S -> option entry) (next : S -> S * bool) : Prop :=
  forall s, inv s ->
    cur s = hd_error (left s) /\ inv (fst (next s)) /\
    left (fst (next s)) = tl (left s) /\ snd (next s) = nonempty (tl (left s)).

(* naiveSeekTo over any such iterator is the walk over its entries.  A deletion entry reports a
   nil key, which compares below every x but the empty one: hence the side condition, which
   holds wherever the model calls naiveSeekTo (x is above the current key). *)
Lemma naive_seek_walk {S : Type} (inv : S -> Prop) (left : S -> segment)
      (cur : S -> option entry) (next : S -> S * bool) :
  iterates inv left cur next ->
  forall x, bleb x [] = false ->
  forall n s, inv s ->
    let r := naive_seek (fun s => option_map entry_key (cur s)) next n x s in
    inv (fst r) /\ left (fst r) = fst (walk is_del n x (left s)) /\ snd r = snd (walk is_del n x (left s)).
Proof.
  intros Hit x Hx. induction n as [|n IH]; intros s Hs; [cbn; auto|].
  destruct (Hit s Hs) as (Hc & N1 & N2 & N3).
  cbn [naive_seek walk]. rewrite Hc.
  destruct (left s) as [|[k o] t] eqn:Er; cbn [hd_error option_map].
  - cbn [fst snd]. rewrite Er. auto.
  - assert (E : bleb x (match entry_key (k, o) with Some k0 => k0 | None => [] end)
                = negb (is_del o) && bleb x k).
    { destruct o; cbn [entry_key is_del negb andb]; auto. }
    rewrite E. destruct (negb (is_del o) && bleb x k).
    + cbn [fst snd]. rewrite Er. auto.
    + cbn [tl] in N2, N3. destruct (next s) as [s' ok]. cbn [fst snd] in N1, N2, N3. subst ok.
      destruct t as [|e t']; cbn [nonempty]; [cbn [fst snd]; auto|].
      rewrite <- N2. apply IH. exact N1.
Qed.

Lemma naive_no_max {S : Type} (inv : S -> Prop) (left : S -> segment)
      (cur : S -> option entry) (next : S -> S * bool) :
  iterates inv left cur next ->
  forall n x s, inv s -> length (left s) < n ->
    snd (naive_seek (fun s => option_map entry_key (cur s)) next n x s) <> NMax.
Proof.
  intros Hit. induction n as [|n IH]; intros x s Hs Hm; [lia|].
  destruct (Hit s Hs) as (Hc & N1 & N2 & N3).
  cbn [naive_seek]. rewrite Hc.
  destruct (left s) as [|e t]; cbn [hd_error option_map]; [cbn [snd]; discriminate|].
  destruct (bleb x _); [cbn [snd]; discriminate|].
  cbn [tl length] in *. destruct (next s) as [s' ok]. cbn [fst snd] in *.
  destruct ok; [|cbn [snd]; discriminate]. apply IH; auto. rewrite N2. lia.
Qed.

Lemma merge_idx segs ll i k v :
  find (nth i (with_ll segs ll) []) k = Some (OMerge v) -> S i <= length segs.
Proof.
  intros H. destruct (le_lt_dec (S i) (length segs)) as [G|G]; auto. exfalso.
  destruct ll as [l|]; simpl in H.
  - rewrite app_nth2 in H by lia. destruct (i - length segs) as [|[|n]]; simpl in H; try discriminate.
    rewrite find_ll_seg in H. destruct (assoc l k); discriminate.
  - rewrite nth_overflow in H by lia. discriminate.
Qed.

Lemma nth_map_filter P (ss : list segment) j :
  @nth segment j (map (filter (kf P)) ss) [] = filter (kf P) (nth j ss []).
Proof. apply (map_nth (filter (kf P)) ss [] j). Qed.

Lemma find_nth_filter P (ss : list segment) j k : P k = true ->
  find (@nth segment j (map (filter (kf P)) ss) []) k = find (nth j ss []) k.
Proof. intros H. rewrite nth_map_filter. unfold kf. now rewrite find_filter, H. Qed.

Definition cpfx (cfg : config) : nat := prefix_len (c_start cfg) (c_end cfg).
Definition rng (cfg : config) : bytes -> bool := in_range (c_start cfg) (c_end cfg).

Definition wf_heap (cfg : config) (rem : list segment) : Prop :=
  exists P, rem = map (filter (kf P)) (all_segs cfg) /\ upclosed (rng cfg) P /\
            hd_vis (c_incl cfg) (view rem).

Lemma raw_range_asc cfg : asc (keys (raw_range cfg)).
Proof. unfold raw_range. apply (asc_map_filter fst), view_asc. Qed.

Lemma raw_range_in_range cfg e : In e (raw_range cfg) -> rng cfg (fst e) = true.
Proof. unfold raw_range. intros H. apply filter_In in H. tauto. Qed.

Lemma in_range_lo cfg k : rng cfg k = true -> bleb (lo_key (c_start cfg)) k = true.
Proof. unfold rng, in_range. intros H. apply andb_true_iff in H. tauto. Qed.

Lemma raw_range_lo cfg e : In e (raw_range cfg) -> bleb (lo_key (c_start cfg)) (fst e) = true.
Proof. intros H. now apply in_range_lo, raw_range_in_range. Qed.

Lemma in_range_some_split start end_ x k :
  bleb (lo_key start) x = true ->
  in_range (Some x) end_ k = in_range start end_ k && bleb x k.
Proof.
  intros H. unfold in_range. simpl lo_key at 1.
  destruct (bleb x k) eqn:E.
  - rewrite (bleb_trans _ _ _ H E). simpl. now rewrite andb_true_r.
  - simpl. now rewrite andb_false_r.
Qed.

Lemma range_drop cfg (s : segment) x' : asc (keys s) ->
  filter (kf (fun k => rng cfg k && bleb x' k)) s = drop_lt x' (filter (kf (rng cfg)) s).
Proof.
  intros H. rewrite drop_lt_filter by (now apply (asc_map_filter fst)).
  unfold kf. now rewrite filter_filter.
Qed.

Lemma raw_range_drop cfg x' : bleb (lo_key (c_start cfg)) x' = true ->
  filter (kf (in_range (Some x') (c_end cfg))) (view (all_segs cfg)) = drop_lt x' (raw_range cfg).
Proof.
  intros Hx. unfold raw_range. rewrite <- (range_drop cfg _ x' (view_asc _)).
  apply filter_ext. intros e. unfold kf. now apply in_range_some_split.
Qed.

Lemma wf_heap_ok cfg rem : cfg_ok cfg -> wf_heap cfg rem -> heap_ok (cpfx cfg) rem.
Proof.
  intros Hc [P [-> [[H1 _] _]]]. split; [now apply all_asc_filter|].
  apply keys_ok_range. intros k Hin.
  rewrite all_keys_filter in Hin. apply filter_In in Hin. apply H1. tauto.
Qed.

Lemma heap_head cfg rem i k o : cfg_ok cfg -> wf_heap cfg rem ->
  min_cursor (cpfx cfg) rem = Some (i, (k, o)) ->
  vis (c_incl cfg) (view rem) = (k, o) :: vis (c_incl cfg) (view (map (gtf k) rem)).
Proof.
  intros Hc Hw Hm. pose proof (wf_heap_ok _ _ Hc Hw) as Hok. destruct Hw as [P [_ [_ Hh]]].
  rewrite (view_min _ _ _ _ _ Hok Hm) in Hh |- *. now apply hd_vis_cons.
Qed.

Lemma heap_empty pfx rem : min_cursor pfx rem = None -> view rem = [].
Proof. intros Hm. apply min_none_total in Hm. now apply total_zero_view. Qed.

Lemma heap_length incl rem : length (vis incl (view rem)) <= total rem.
Proof.
  pose proof (vis_length incl (view rem)) as G1. pose proof (all_keys_length rem) as G2.
  unfold view in G1 at 2. rewrite map_length in G1. lia.
Qed.

Lemma heap_iterates cfg : cfg_ok cfg ->
  iterates (wf_heap cfg) (fun r => vis (c_incl cfg) (view r))
           (heap_current_ex (cpfx cfg)) (heap_next (c_incl cfg) (cpfx cfg)).
Proof.
  intros Hc rem Hw. split.
  { unfold heap_current_ex. destruct (min_cursor (cpfx cfg) rem) as [[i [k o]]|] eqn:Hm.
    - now rewrite (heap_head _ _ _ _ _ Hc Hw Hm).
    - now rewrite (heap_empty _ _ Hm). }
  pose proof (wf_heap_ok _ _ Hc Hw) as Hok. destruct Hw as [P [HP [Hu Hh]]].
  destruct (heap_next_spec (c_incl cfg) (cpfx cfg) rem Hok Hh) as [b [R1 [R2 [R3 R4]]]].
  split; [|split; [exact R2|now rewrite R3, R2]].
  exists (fun k => P k && bltb b k). split; [|split; auto].
  - rewrite R1, HP. unfold gtf. apply map_filter_filter.
  - now apply upclosed_gt.
Qed.

Lemma heap_restart_raw cfg x' : cfg_ok cfg -> bleb (lo_key (c_start cfg)) x' = true ->
  let rem' := heap_start cfg (Some x') in
  wf_heap cfg rem' /\
  vis (c_incl cfg) (view rem') = drop_lt x' (vis (c_incl cfg) (raw_range cfg)) /\
  negb (Nat.eqb (total rem') 0) = nonempty (vis (c_incl cfg) (view rem')).
Proof.
  intros Hc Hx. destruct (heap_start_spec cfg (Some x') Hc) as [P [E1 [Hu [Hh Hv]]]].
  split; [|split].
  - exists P. split; auto. split; auto. eapply upclosed_restart; eauto.
  - rewrite Hv, (raw_range_drop cfg x' Hx). symmetry. apply drop_lt_vis, raw_range_asc.
  - now rewrite (hd_vis_nonempty _ _ Hh), view_nonempty.
Qed.

Lemma heap_seek_raw cfg x rem : cfg_ok cfg -> wf_heap cfg rem ->
  let rem' := fst (heap_seek cfg (cpfx cfg) x rem) in
  wf_heap cfg rem' /\
  vis (c_incl cfg) (view rem')
  = seek_list is_del (c_start cfg) (c_tries cfg) (vis (c_incl cfg) (raw_range cfg)) x
              (vis (c_incl cfg) (view rem)) /\
  snd (heap_seek cfg (cpfx cfg) x rem) = nonempty (vis (c_incl cfg) (view rem')).
Proof.
  intros Hc Hw. cbv zeta.
  pose proof (heap_restart_raw cfg (seek_bound (c_start cfg) x) Hc (seek_bound_ge _ _)) as Hrs.
  pose proof (heap_length (c_incl cfg) rem) as Hlen.
  pose proof (walk_res is_del (walk_fuel (c_tries cfg) (vis (c_incl cfg) (view rem))) x
                (vis (c_incl cfg) (view rem))) as Hres.
  unfold heap_seek. cbv zeta. fold (seek_bound (c_start cfg) x).
  rewrite (proj1 (heap_iterates cfg Hc rem Hw)). unfold seek_list. cbv zeta.
  destruct (vis (c_incl cfg) (view rem)) as [|[k o] t] eqn:Ev; cbn [hd_error]; [exact Hrs|].
  destruct (is_del o) eqn:Ed.
  { destruct o; try discriminate. exact Hrs. }
  replace (entry_key (k, o)) with (Some k) by (destruct o; try discriminate; reflexivity).
  destruct (bcmp x k) eqn:Ec; [|exact Hrs|].
  { cbn [fst snd]. rewrite Ev. auto. }
  assert (Hlt : bltb k x = true) by (apply bltb_true; now apply bcmp_gt_lt).
  pose proof (naive_seek_walk _ _ _ _ (heap_iterates cfg Hc) x (bleb_nil_false _ _ Hlt)
                (naive_fuel (c_tries cfg) (total rem)) rem Hw) as Hn.
  cbv zeta beta in Hn. rewrite Ev, (walk_naive_fuel is_del _ _ x _ Hlen) in Hn.
  destruct (naive_seek _ _ _ x rem) as [r res].
  destruct (walk is_del _ x _) as [l' res'].
  cbn [fst snd] in Hn, Hres. destruct Hn as [Hwr [Hr1 Hr2]]. subst res'.
  destruct res; cbn [fst snd]; [| |exact Hrs]; rewrite Hr1; split; auto; split; auto.
  - destruct l'; [congruence|reflexivity].
  - now rewrite Hres.
Qed.

Lemma window_next {A} e n (l : list A) :
  firstn (e - S n) (skipn (S n) l) = tl (firstn (e - n) (skipn n l)).
Proof.
  rewrite skipn_S_tl. destruct (le_lt_dec e n) as [G|G].
  - replace (e - S n) with 0 by lia. replace (e - n) with 0 by lia. reflexivity.
  - replace (e - n) with (S (e - S n)) by lia. destruct (skipn n l); simpl; auto.
    now rewrite firstn_nil.
Qed.

Lemma window_nonempty {A} e n (l : list A) : e <= length l ->
  nonempty (firstn (e - n) (skipn n l)) = negb (e <=? n).
Proof.
  intros He. destruct (le_lt_dec e n) as [G|G].
  - replace (e - n) with 0 by lia. simpl. symmetry. apply negb_false_iff. now apply Nat.leb_le.
  - assert (E : (e <=? n) = false) by (apply Nat.leb_gt; lia). rewrite E. simpl.
    assert (L : length (skipn n l) > 0) by (rewrite skipn_length; lia).
    destruct (skipn n l); simpl in L; [lia|].
    replace (e - n) with (S (e - S n)) by lia. reflexivity.
Qed.

Lemma hd_skipn {A} n (l : list A) : hd_error (skipn n l) = nth_error l n.
Proof. revert l. induction n as [|n IH]; intros [|a l]; simpl; auto. Qed.

Lemma window_hd {A} e n (l : list A) :
  hd_error (firstn (e - n) (skipn n l)) = if n <? e then nth_error l n else None.
Proof.
  destruct (n <? e) eqn:E.
  - apply Nat.ltb_lt in E. replace (e - n) with (S (e - S n)) by lia.
    rewrite <- hd_skipn. destruct (skipn n l); reflexivity.
  - apply Nat.ltb_ge in E. replace (e - n) with 0 by lia. reflexivity.
Qed.

Definition pos_ok (c : scursor) : Prop :=
  sc_start c <= sc_curr c /\ sc_end c <= length (sc_seg c).

Definition same_frame (c c' : scursor) : Prop :=
  sc_seg c' = sc_seg c /\ sc_start c' = sc_start c /\ sc_end c' = sc_end c.

Lemma same_frame_refl c : same_frame c c.
Proof. repeat split. Qed.

Lemma same_frame_trans a b c : same_frame a b -> same_frame b c -> same_frame a c.
Proof. unfold same_frame. intuition congruence. Qed.

Lemma sc_rest_eq c : pos_ok c ->
  sc_rest c = firstn (sc_end c - sc_curr c) (skipn (sc_curr c) (sc_seg c)).
Proof.
  intros [H _]. unfold sc_rest. apply Nat.leb_le in H. now rewrite H.
Qed.

Lemma sc_rest_length c : pos_ok c -> length (sc_rest c) <= sc_end c - sc_curr c.
Proof. intros H. rewrite (sc_rest_eq c H), firstn_length. lia. Qed.

Lemma sc_current_rest c : pos_ok c -> sc_current c = hd_error (sc_rest c).
Proof.
  intros H. rewrite (sc_rest_eq c H), window_hd. destruct H as [H _].
  unfold sc_current. apply Nat.leb_le in H. now rewrite H.
Qed.

Lemma sc_next_spec c : pos_ok c ->
  pos_ok (fst (sc_next c)) /\ same_frame c (fst (sc_next c)) /\
  sc_rest (fst (sc_next c)) = tl (sc_rest c) /\
  snd (sc_next c) = nonempty (sc_rest (fst (sc_next c))) /\
  sc_curr (fst (sc_next c)) = S (sc_curr c).
Proof.
  intros H. assert (H' : pos_ok (fst (sc_next c))).
  { destruct H as [H1 H2]. split; simpl; auto. }
  split; auto. split; [repeat split|].
  rewrite (sc_rest_eq _ H'), (sc_rest_eq _ H).
  unfold sc_next. cbn [fst snd sc_seg sc_start sc_end sc_curr]. split; [|split; auto].
  - apply window_next.
  - rewrite window_nonempty; auto. destruct H; auto.
Qed.

Definition snx_post (incl : bool) (c : scursor) (r : scursor * option entry * bool) : Prop :=
  pos_ok (fst (fst r)) /\ same_frame c (fst (fst r)) /\
  snd (fst r) = hd_error (sc_rest (fst (fst r))) /\
  hd_vis incl (sc_rest (fst (fst r))) /\
  vis incl (sc_rest (fst (fst r))) = vis incl (tl (sc_rest c)) /\
  snd r = nonempty (sc_rest (fst (fst r))) /\
  exists pre, sc_rest c = pre ++ sc_rest (fst (fst r)).

Lemma single_next_aux_spec incl : forall fuel c,
  pos_ok c -> sc_end c - sc_curr c <= fuel ->
  snx_post incl c (single_next_aux incl fuel c).
Proof.
  induction fuel as [|f IH]; intros c Hp Hf;
    destruct (sc_next_spec c Hp) as [N1 [N2 [N3 [N4 N5]]]];
    pose proof (sc_current_rest _ N1) as Hcur;
    cbn [single_next_aux];
    change (sc_next c) with (fst (sc_next c), snd (sc_next c));
    set (c' := fst (sc_next c)) in *; cbv iota; rewrite N4, Hcur;
    (assert (Hpre : exists pre, sc_rest c = pre ++ sc_rest c')
      by (rewrite N3; destruct (sc_rest c) as [|e t]; [exists []|exists [e]]; reflexivity));
    destruct (sc_rest c') as [|[k o] t] eqn:Er; cbn [nonempty hd_error].
  - unfold snx_post. cbn [fst snd]. rewrite <- N3, !Er.
    split; [exact N1|split; [exact N2|]]. repeat split; auto.
  - exfalso. rewrite (sc_rest_eq _ N1) in Er. rewrite N5 in Er.
    destruct N2 as [_ [_ E]]. rewrite E in Er.
    replace (sc_end c - S (sc_curr c)) with 0 in Er by lia. discriminate.
  - unfold snx_post. cbn [fst snd]. rewrite <- N3, !Er.
    split; [exact N1|split; [exact N2|]]. repeat split; auto.
  - assert (Hgen : o <> ODel \/ incl = true -> snx_post incl c (c', Some (k, o), true)).
    { intros Ho. unfold snx_post. cbn [fst snd]. rewrite <- N3, !Er.
      split; [exact N1|split; [exact N2|]]. repeat split; auto.
      simpl. destruct o; auto. destruct Ho; congruence. }
    destruct o as [v| |v]; try (apply Hgen; left; discriminate).
    destruct incl eqn:Ei; [apply Hgen; auto|].
    assert (Hf' : sc_end c' - sc_curr c' <= f).
    { destruct N2 as [_ [_ E]]. rewrite E, N5. lia. }
    destruct (IH c' N1 Hf') as [A1 [A2 [A3 [A4 [A5 [A6 [pre2 A7]]]]]]].
    unfold snx_post.
    split; [exact A1|split; [exact (same_frame_trans c c' _ N2 A2)|]]. repeat split; auto.
    + rewrite A5, <- N3, Er. reflexivity.
    + destruct Hpre as [pre1 Hpre]. exists (pre1 ++ pre2). rewrite Hpre.
      rewrite <- app_assoc. f_equal. rewrite <- A7. symmetry. exact Er.
Qed.

Definition frame_ok (cfg : config) (seg : segment) (c : scursor) : Prop :=
  sc_seg c = seg /\ asc (keys seg) /\
  sc_start c = lower_bound seg (lo_key (c_start cfg)) /\
  sc_end c = match c_end cfg with Some e => lower_bound seg e | None => length seg end.

Definition wf_single (cfg : config) (seg : segment) (c : scursor) (cur : option entry) : Prop :=
  frame_ok cfg seg c /\ sc_start c <= sc_curr c /\
  cur = hd_error (sc_rest c) /\ hd_vis (c_incl cfg) (sc_rest c) /\
  exists P, upclosed (rng cfg) P /\ sc_rest c = filter (kf P) seg.

Lemma frame_pos_ok cfg seg c : frame_ok cfg seg c -> sc_start c <= sc_curr c -> pos_ok c.
Proof.
  intros [E1 [_ [_ E3]]] H. split; auto. rewrite E3, E1.
  destruct (c_end cfg); [apply lb_le_length|lia].
Qed.

Lemma frame_ok_same cfg seg c c' : frame_ok cfg seg c -> same_frame c c' -> frame_ok cfg seg c'.
Proof.
  intros [E1 [E2 [E3 E4]]] [F1 [F2 F3]]. unfold frame_ok. rewrite F1, F2, F3. auto.
Qed.

Lemma wf_single_seg cfg seg c cur : wf_single cfg seg c cur -> sc_seg c = seg.
Proof. intros [[E _] _]. exact E. Qed.

Lemma suffix_upclosed R seg P pre suf :
  asc (keys seg) -> filter (kf P) seg = pre ++ suf -> upclosed R P ->
  exists P', upclosed R P' /\ suf = filter (kf P') seg.
Proof.
  intros Ha Hf Hu.
  set (Q := fun k => match suf with [] => false | e :: _ => bleb (fst e) k end).
  exists (fun k => P k && Q k). split.
  - apply upclosed_and; [exact Hu|]. intros k k' HQ Hle.
    unfold Q in *. destruct suf; auto. now apply bleb_trans with k.
  - assert (Hasc : asc (keys (pre ++ suf))) by (rewrite <- Hf; now apply (asc_map_filter fst)).
    assert (E : filter (kf (fun k => P k && Q k)) seg = filter (kf Q) (filter (kf P) seg)).
    { unfold kf. now rewrite filter_filter. }
    rewrite E, Hf. unfold Q. destruct suf as [|[k a] t].
    + symmetry. now apply filter_none.
    + transitivity (drop_lt k (pre ++ (k, a) :: t)); [|exact (drop_lt_filter k _ Hasc)].
      symmetry. exact (eq_trans (drop_lt_suffix pre (k, a) t k Hasc (bleb_refl k)) (drop_lt_self k a t)).
Qed.

Lemma single_next_raw cfg seg c : frame_ok cfg seg c -> sc_start c <= sc_curr c ->
  (exists P, upclosed (rng cfg) P /\ sc_rest c = filter (kf P) seg) ->
  let r := single_next (c_incl cfg) c in
  wf_single cfg seg (fst (fst r)) (snd (fst r)) /\
  vis (c_incl cfg) (sc_rest (fst (fst r))) = vis (c_incl cfg) (tl (sc_rest c)) /\
  snd r = nonempty (vis (c_incl cfg) (sc_rest (fst (fst r)))).
Proof.
  intros Hfr Hpos [P [Hu HP]]. cbv zeta.
  pose proof (frame_pos_ok _ _ _ Hfr Hpos) as Hp.
  destruct (single_next_aux_spec (c_incl cfg) (sc_end c - sc_curr c) c Hp (le_n _))
    as [A1 [A2 [A3 [A4 [A5 [A6 [pre A7]]]]]]].
  fold (single_next (c_incl cfg) c) in *.
  split; [|split; [exact A5|now rewrite (hd_vis_nonempty _ _ A4)]].
  split; [eapply frame_ok_same; eauto|]. split; [apply A1|]. split; auto. split; auto.
  destruct Hfr as [_ [Hasc _]].
  eapply (suffix_upclosed (rng cfg) seg P pre); eauto. now rewrite <- HP.
Qed.

Definition snext (cfg : config) (s : scursor * option entry) : (scursor * option entry) * bool :=
  let '(c', cur', ok) := single_next (c_incl cfg) (fst s) in ((c', cur'), ok).

Lemma single_iterates cfg seg :
  iterates (fun s => wf_single cfg seg (fst s) (snd s))
           (fun s => vis (c_incl cfg) (sc_rest (fst s))) snd (snext cfg).
Proof.
  intros [c cur] Hw. pose proof Hw as [Hfr [Hpos [Hcur [Hh HP]]]]. cbn [fst snd] in *.
  split; [rewrite Hcur; symmetry; now apply hd_vis_hd|].
  destruct (single_next_raw cfg seg c Hfr Hpos HP) as [B1 [B2 B3]].
  unfold snext. cbn [fst]. destruct (single_next (c_incl cfg) c) as [[c' cur'] ok].
  cbn [fst snd] in *. rewrite <- (vis_tl_hd _ _ Hh), <- B2. auto.
Qed.

Lemma seek_pos seg start x :
  (if lower_bound seg x <? lower_bound seg (lo_key start)
   then lower_bound seg (lo_key start) else lower_bound seg x)
  = lower_bound seg (seek_bound start x).
Proof.
  unfold seek_bound. destruct start as [s|]; simpl.
  - destruct (bltb x s) eqn:E.
    + pose proof (lb_mono seg x s (bltb_bleb _ _ E)) as G.
      destruct (lower_bound seg x <? lower_bound seg s) eqn:F; auto.
      apply Nat.ltb_ge in F. lia.
    + apply bltb_false in E. pose proof (lb_mono seg s x E) as G.
      destruct (lower_bound seg x <? lower_bound seg s) eqn:F; auto.
      apply Nat.ltb_lt in F. lia.
  - assert (E : lower_bound seg [] = 0).
    { destruct seg as [|[k o] r]; auto. simpl. destruct k; reflexivity. }
    rewrite E. reflexivity.
Qed.

Lemma upclosed_lo cfg x' : upclosed (rng cfg) (fun k => rng cfg k && bleb x' k).
Proof. apply upclosed_and; [apply in_range_upclosed|]. intros k k'. apply bleb_trans. Qed.

Lemma sc_seek_spec cfg seg c x : frame_ok cfg seg c ->
  let c' := fst (sc_seek x c) in
  let x' := seek_bound (c_start cfg) x in
  frame_ok cfg seg c' /\ sc_start c' <= sc_curr c' /\
  sc_rest c' = filter (kf (fun k => rng cfg k && bleb x' k)) seg /\
  snd (sc_seek x c) = nonempty (sc_rest c').
Proof.
  intros Hfr. pose proof Hfr as [E1 [Ha [E2 E3]]]. cbv zeta.
  assert (Hcurr : sc_curr (fst (sc_seek x c)) = lower_bound seg (seek_bound (c_start cfg) x)).
  { unfold sc_seek. cbn [fst sc_curr]. rewrite E1, E2. apply seek_pos. }
  assert (Hfr' : frame_ok cfg seg (fst (sc_seek x c))).
  { eapply frame_ok_same; eauto. repeat split. }
  assert (Hpos : sc_start (fst (sc_seek x c)) <= sc_curr (fst (sc_seek x c))).
  { rewrite Hcurr. change (sc_start (fst (sc_seek x c))) with (sc_start c). rewrite E2.
    apply lb_mono. apply seek_bound_ge. }
  pose proof (frame_pos_ok _ _ _ Hfr' Hpos) as Hp.
  split; auto. split; auto.
  assert (Hrest : sc_rest (fst (sc_seek x c))
                  = slice (Some (seek_bound (c_start cfg) x)) (c_end cfg) seg).
  { rewrite (sc_rest_eq _ Hp), Hcurr.
    change (sc_end (fst (sc_seek x c))) with (sc_end c).
    change (sc_seg (fst (sc_seek x c))) with (sc_seg c). rewrite E1, E3.
    unfold slice, sc_rest, seg_cursor. cbn [sc_start sc_curr sc_end sc_seg lo_key].
    now rewrite Nat.leb_refl. }
  split.
  - rewrite Hrest, slice_filter; auto. apply filter_ext. intros e. unfold kf.
    apply in_range_some_split. apply seek_bound_ge.
  - rewrite (sc_rest_eq _ Hp). unfold sc_seek. cbn [fst snd sc_end sc_curr sc_seg].
    rewrite window_nonempty; auto. destruct Hp as [_ Hp]. exact Hp.
Qed.

Definition single_fall (cfg : config) (x : bytes) (c : scursor) : scursor * option entry * bool :=
  let incl := c_incl cfg in
  let (c', ok) := sc_seek x c in
  if ok then
    match sc_current c' with
    | Some (k, ODel) => if incl then (c', Some (k, ODel), true) else single_next incl c'
    | o => (c', o, true)
    end
  else (c', None, false).

Definition snaive (cfg : config) (x : bytes) (c : scursor) (cur : option entry) :=
  naive_seek (fun s : scursor * option entry => option_map entry_key (snd s))
             (fun s => let '(c', cur', ok) := single_next (c_incl cfg) (fst s) in ((c', cur'), ok))
             (naive_fuel (c_tries cfg) (sc_end c - sc_curr c)) x (c, cur).

Lemma single_seek_unfold cfg x c cur :
  single_seek cfg x c cur =
  match match cur with Some e => entry_key e | None => None end with
  | Some k =>
      match bcmp x k with
      | Eq => (c, cur, true)
      | Gt => match snaive cfg x c cur with
              | (s, NOk) => (fst s, snd s, true)
              | (s, NDone) => (fst s, snd s, false)
              | (s, NMax) => single_fall cfg x (fst s)
              end
      | Lt => single_fall cfg x c
      end
  | None => single_fall cfg x c
  end.
Proof. reflexivity. Qed.

Definition single_post (cfg : config) (seg l : segment) (r : scursor * option entry * bool) : Prop :=
  wf_single cfg seg (fst (fst r)) (snd (fst r)) /\
  vis (c_incl cfg) (sc_rest (fst (fst r))) = l /\ snd r = nonempty l.

Lemma single_fall_raw cfg seg c x : frame_ok cfg seg c ->
  single_post cfg seg
    (drop_lt (seek_bound (c_start cfg) x) (vis (c_incl cfg) (filter (kf (rng cfg)) seg)))
    (single_fall cfg x c).
Proof.
  intros Hfr. destruct (sc_seek_spec cfg seg c x Hfr) as [F1 [F2 [F3 F4]]].
  pose proof (frame_pos_ok _ _ _ F1 F2) as Hp.
  pose proof Hfr as [_ [Ha _]].
  rewrite drop_lt_vis, <- (range_drop cfg seg _ Ha), <- F3 by (now apply (asc_map_filter fst)).
  assert (HP : exists P, upclosed (rng cfg) P /\ sc_rest (fst (sc_seek x c)) = filter (kf P) seg)
    by (eexists; split; [apply upclosed_lo|exact F3]).
  unfold single_fall. cbv zeta.
  change (sc_seek x c) with (fst (sc_seek x c), snd (sc_seek x c)).
  set (c' := fst (sc_seek x c)) in *. cbv iota. cbn [fst]. rewrite F4, (sc_current_rest _ Hp).
  assert (Hgen : hd_vis (c_incl cfg) (sc_rest c') ->
            single_post cfg seg (vis (c_incl cfg) (sc_rest c'))
                        (c', hd_error (sc_rest c'), nonempty (sc_rest c'))).
  { intros Hh. split; [|split; [reflexivity|symmetry; now apply hd_vis_nonempty]].
    cbn [fst snd]. split; auto. }
  destruct (single_next_raw cfg seg c' F1 F2 HP) as [B1 [B2 B3]].
  destruct (sc_rest c') as [|[k o] t] eqn:Er; cbn [nonempty hd_error].
  - apply Hgen. exact I.
  - destruct o as [v| |v]; try (apply Hgen; exact I).
    destruct (c_incl cfg) eqn:Ei; [apply Hgen; reflexivity|].
    unfold single_post. rewrite Ei. split; [exact B1|]. split; [exact B2|]. now rewrite B3, B2.
Qed.

Lemma single_seek_raw cfg seg c cur x : wf_single cfg seg c cur ->
  single_post cfg seg
    (seek_list is_del (c_start cfg) (c_tries cfg) (vis (c_incl cfg) (filter (kf (rng cfg)) seg)) x
               (vis (c_incl cfg) (sc_rest c)))
    (single_seek cfg x c cur).
Proof.
  intros Hw. rewrite single_seek_unfold.
  pose proof Hw as [Hfr [Hpos [Hcur [Hh _]]]].
  pose proof (single_fall_raw cfg seg) as Hfall.
  assert (Hlen : length (vis (c_incl cfg) (sc_rest c)) <= sc_end c - sc_curr c).
  { pose proof (vis_length (c_incl cfg) (sc_rest c)).
    pose proof (sc_rest_length c (frame_pos_ok _ _ _ Hfr Hpos)). lia. }
  pose proof (walk_res is_del (walk_fuel (c_tries cfg) (vis (c_incl cfg) (sc_rest c))) x
                (vis (c_incl cfg) (sc_rest c))) as Hres.
  rewrite <- (hd_vis_hd _ _ Hh) in Hcur. subst cur. unfold seek_list. cbv zeta.
  destruct (vis (c_incl cfg) (sc_rest c)) as [|[k o] t] eqn:Ev; cbn [hd_error] in *;
    [now apply Hfall|].
  destruct (is_del o) eqn:Ed.
  { destruct o; try discriminate. now apply Hfall. }
  replace (entry_key (k, o)) with (Some k) by (destruct o; try discriminate; reflexivity).
  destruct (bcmp x k) eqn:Ec; [|now apply Hfall|].
  { split; [exact Hw|]. cbn [fst snd]. now rewrite Ev. }
  assert (Hlt : bltb k x = true) by (apply bltb_true; now apply bcmp_gt_lt).
  pose proof (naive_seek_walk _ _ _ _ (single_iterates cfg seg) x (bleb_nil_false _ _ Hlt)
                (naive_fuel (c_tries cfg) (sc_end c - sc_curr c)) (c, _) Hw) as Hn.
  cbv zeta beta in Hn. cbn [fst] in Hn. unfold snext in Hn. unfold snaive.
  rewrite Ev, (walk_naive_fuel is_del _ _ x _ Hlen) in Hn.
  destruct (naive_seek _ _ _ x _) as [s res].
  destruct (walk is_del _ x _) as [l' res'].
  cbn [fst snd] in Hn, Hres. destruct Hn as [Hws [Hr1 Hr2]]. subst res'.
  destruct res.
  - split; [exact Hws|]. cbn [fst snd]. split; auto. destruct l'; [congruence|reflexivity].
  - split; [exact Hws|]. cbn [fst snd]. split; auto. now rewrite Hres.
  - apply Hfall. destruct Hws as [G0 _]. exact G0.
Qed.

Lemma total_zero_nth rem j : total rem = 0 -> nth j rem [] = [].
Proof.
  revert j. induction rem as [|r rest IH]; intros [|j] H; simpl in *; auto.
  - destruct r; [auto|discriminate].
  - apply IH. lia.
Qed.

Lemma only_cursor_spec rem i : only_cursor rem = Some i ->
  (exists e t, nth i rem [] = e :: t) /\ (forall j, j <> i -> nth j rem [] = []).
Proof.
  revert i. induction rem as [|r rest IH]; intros i H; simpl in H; [discriminate|].
  destruct r as [|e t].
  - destruct (only_cursor rest) as [i'|] eqn:E; [|discriminate]. injection H as <-.
    destruct (IH i' eq_refl) as [A B]. split; auto.
    intros [|j] Hj; simpl; auto.
  - destruct (Nat.eqb (total rest) 0) eqn:E; [|discriminate]. injection H as <-.
    apply Nat.eqb_eq in E. split; [simpl; eauto|].
    intros [|j] Hj; [congruence|]. simpl. now apply total_zero_nth.
Qed.

Lemma newest_only rem i k :
  (forall j, j <> i -> nth j rem [] = []) -> newest rem k = find (nth i rem []) k.
Proof.
  intros H. destruct (find (nth i rem []) k) as [o|] eqn:E.
  - apply (newest_nth rem i); auto. intros j Hj. rewrite H by lia. reflexivity.
  - apply newest_none. intros s Hs. destruct (In_nth _ _ [] Hs) as (j & _ & <-).
    destruct (Nat.eq_dec j i) as [->|Hne]; [exact E|]. now rewrite H.
Qed.

Lemma view_only (rem : list segment) i : all_asc rem -> only_cursor rem = Some i ->
  view rem = nth i rem [].
Proof.
  intros Ha Ho. destruct (only_cursor_spec _ _ Ho) as [_ B].
  pose proof (all_asc_nth rem i Ha) as Hi.
  apply (asc_map_ext fst); [apply view_asc|exact Hi|]. intros [k o].
  rewrite view_in, (newest_only rem i k B). now apply find_in_iff.
Qed.

Lemma upclosed_suffix R P (s : segment) : asc (keys s) -> upclosed R P ->
  exists pre, filter (kf R) s = pre ++ filter (kf P) s.
Proof.
  intros Ha [H1 H2]. induction s as [|e s IH]; [exists []; reflexivity|].
  cbn [filter]. unfold kf at 1 4. destruct (P (fst e)) eqn:E.
  - rewrite (H1 _ E). exists []. cbn [app]. f_equal. apply filter_ext_in. intros e' He'. unfold kf.
    destruct (R (fst e')) eqn:Er.
    + symmetry. apply (H2 (fst e)); auto. apply bltb_bleb. exact (sorted_head_lt e s e' Ha He').
    + destruct (P (fst e')) eqn:Ep; auto. rewrite (H1 _ Ep) in Er. discriminate.
  - destruct (IH (asc_tail _ _ Ha)) as [pre IH'].
    destruct (R (fst e)); [exists (e :: pre); cbn [app]; now f_equal|exists pre; exact IH'].
Qed.

(* what is visible of the entries in an up-closed P is a suffix of what is visible of the range *)
Lemma range_suffix incl R P (s : segment) : asc (keys s) -> upclosed R P ->
  asc (keys (vis incl (filter (kf R) s))) /\
  (forall e, In e (vis incl (filter (kf R) s)) -> R (fst e) = true) /\
  exists pre, vis incl (filter (kf R) s) = pre ++ vis incl (filter (kf P) s).
Proof.
  intros Ha Hu. split; [now apply vis_asc, (asc_map_filter fst)|]. split.
  - intros e He. unfold vis in He. apply filter_In in He. destruct He as [He _].
    apply filter_In in He. tauto.
  - destruct (upclosed_suffix R P s Ha Hu) as [pre E].
    exists (vis incl pre). rewrite E at 1. apply filter_app.
Qed.

(* the last |r| positions of the window [a,b) when the window ends with r *)
Lemma window_suffix {A} (seg : list A) a b pre r :
  b <= length seg ->
  firstn (b - a) (skipn a seg) = pre ++ r ->
  r <> [] ->
  a <= b - length r /\ firstn (b - (b - length r)) (skipn (b - length r) seg) = r.
Proof.
  intros Hb H Hr.
  assert (Hlen : length pre + length r = b - a).
  { rewrite <- app_length, <- H, firstn_length, skipn_length. lia. }
  assert (Hr' : length r > 0) by (destruct r; simpl; [congruence|lia]).
  split; [lia|].
  replace (b - (b - length r)) with (length r) by lia.
  set (T := skipn a seg) in *.
  assert (HT : T = (pre ++ r) ++ skipn (b - a) T).
  { rewrite <- H. symmetry. apply firstn_skipn. }
  replace (b - length r) with (a + length pre) by lia.
  rewrite skipn_add. fold T. rewrite HT at 1. rewrite <- app_assoc.
  rewrite skipn_length_app. apply firstn_length_app.
Qed.

(* the cursor optimize() builds *)
Lemma slice_suffix_cursor lo hi (seg pre r : segment) :
  slice lo hi seg = pre ++ r -> r <> [] ->
  let c0 := seg_cursor seg lo hi in
  let c := mk_sc seg (sc_start c0) (sc_end c0) (sc_end c0 - length r) in
  sc_start c <= sc_curr c /\ sc_rest c = r.
Proof.
  unfold slice, sc_rest, seg_cursor. cbn [sc_start sc_curr sc_end sc_seg]. rewrite Nat.leb_refl.
  intros H Hr. apply window_suffix in H; auto; [|destruct hi; [apply lb_le_length|lia]].
  destruct H as [W1 W2]. split; [exact W1|]. apply Nat.leb_le in W1. now rewrite W1.
Qed.

Lemma num_cursors_zero rem : num_cursors rem = 0 -> total rem = 0.
Proof.
  unfold num_cursors. induction rem as [|r rest IH]; simpl; auto.
  destruct r; simpl; [exact IH|discriminate].
Qed.

Lemma num_cursors_one rem : num_cursors rem = 1 -> exists j, only_cursor rem = Some j.
Proof.
  unfold num_cursors. induction rem as [|r rest IH]; simpl; [discriminate|].
  destruct r as [|e t]; simpl.
  - intros H. destruct (IH H) as [j ->]. simpl. eauto.
  - intros H. injection H as H. apply num_cursors_zero in H. rewrite H. simpl. eauto.
Qed.

Lemma total_zero_num rem : total rem = 0 -> num_cursors rem = 0.
Proof.
  unfold num_cursors. induction rem as [|r rest IH]; simpl; auto.
  destruct r; simpl; [exact IH|discriminate].
Qed.

Lemma only_cursor_num rem i : only_cursor rem = Some i -> num_cursors rem = 1.
Proof.
  revert i. induction rem as [|r rest IH]; intros i H; simpl in H; [discriminate|].
  destruct r as [|e t].
  - destruct (only_cursor rest) as [i'|] eqn:E; [|discriminate].
    unfold num_cursors in *. simpl. now apply (IH i').
  - destruct (Nat.eqb (total rest) 0) eqn:E; [|discriminate]. apply Nat.eqb_eq in E.
    apply total_zero_num in E. unfold num_cursors in *. simpl. now rewrite E.
Qed.

(* a cursor that is live after the skip was live before it *)
Lemma only_cursor_same cfg P (rem : list segment) i j :
  rem = map (filter (kf P)) (all_segs cfg) -> upclosed (rng cfg) P ->
  only_cursor rem = Some i ->
  only_cursor (map (filter (kf (rng cfg))) (all_segs cfg)) = Some j -> i = j.
Proof.
  intros -> [H1 _] Ei Ej.
  destruct (only_cursor_spec _ _ Ei) as [[e [t A]] _].
  destruct (only_cursor_spec _ _ Ej) as [_ B].
  destruct (Nat.eq_dec i j) as [|Hne]; auto. exfalso.
  specialize (B i Hne). rewrite nth_map_filter in A, B.
  assert (G : In e (filter (kf (rng cfg)) (nth i (all_segs cfg) []))).
  { pose proof (@in_eq entry e t) as G. rewrite <- A in G. apply filter_In in G.
    apply filter_In. split; [tauto|]. apply H1. tauto. }
  rewrite B in G. destruct G.
Qed.

Definition wf_lower (all rest : segment) : Prop :=
  asc (keys all) /\ (forall e, In e all -> exists v, snd e = OSet v) /\
  (forall e, In e rest -> In e all).

Definition wf_impl (cfg : config) (i : impl) : Prop :=
  match i with
  | IHeap rem => wf_heap cfg rem
  | ISingle c cur => wf_single cfg (sc_seg c) c cur
  | ILower all rest => wf_lower all rest
  end.

Definition wf_pre_fix (st : iter_state) : Prop :=
  cfg_ok (st_cfg st) /\ st_pfx st = cpfx (st_cfg st) /\ wf_impl (st_cfg st) (st_impl st).

(* remaining raw entries (what CurrentEx walks through) *)
Definition raw_impl (cfg : config) (i : impl) : segment :=
  match i with
  | IHeap rem => vis (c_incl cfg) (view rem)
  | ISingle c _ => vis (c_incl cfg) (sc_rest c)
  | ILower _ rest => rest
  end.

Definition raw (st : iter_state) : segment := raw_impl (st_cfg st) (st_impl st).

Definition range_impl (cfg : config) (i : impl) : segment :=
  match i with
  | IHeap _ => vis (c_incl cfg) (raw_range cfg)
  | ISingle c _ => vis (c_incl cfg) (filter (kf (rng cfg)) (sc_seg c))
  | ILower all _ => all
  end.

Definition same_kind (i i' : impl) : Prop :=
  match i, i' with
  | IHeap _, IHeap _ => True
  | ISingle c _, ISingle c' _ => sc_seg c' = sc_seg c
  | ILower all _, ILower all' _ => all' = all
  | _, _ => False
  end.

Lemma vis_all_set incl (s : segment) :
  (forall e, In e s -> exists v, snd e = OSet v) -> vis incl s = s.
Proof.
  intros H. apply filter_all. intros e He. destruct (H e He) as [v ->]. simpl.
  apply orb_true_r.
Qed.

Lemma nth_with_ll_lt segs ll i : i < length segs -> nth i (with_ll segs ll) [] = nth i segs [].
Proof. intros H. destruct ll; simpl; auto. now rewrite app_nth1. Qed.

Lemma nth_with_ll_set segs ll i e :
  length segs <= i -> In e (nth i (with_ll segs ll) []) -> exists v, snd e = OSet v.
Proof.
  intros H. destruct ll as [l|]; simpl.
  - rewrite app_nth2 by lia. destruct (i - length segs) as [|[|n]]; simpl; try tauto.
    intros He. apply in_map_iff in He. destruct He as [y [<- _]]. simpl. eauto.
  - rewrite nth_overflow by lia. intros [].
Qed.

Lemma optimize_raw cfg rem : cfg_ok cfg -> wf_heap cfg rem ->
  wf_impl cfg (optimize_pre_fix cfg rem) /\
  raw_impl cfg (optimize_pre_fix cfg rem) = vis (c_incl cfg) (view rem).
Proof.
  intros Hc Hw. unfold optimize_pre_fix.
  destruct (only_cursor rem) as [i|] eqn:Ho; [|split; auto].
  pose proof (view_only rem i (proj1 (wf_heap_ok _ _ Hc Hw)) Ho) as Hv.
  destruct (only_cursor_spec _ _ Ho) as [[e [t A]] _].
  destruct Hw as [P [HP [Hu Hh]]].
  set (seg' := nth i (all_segs cfg) []).
  assert (Hn : nth i rem [] = filter (kf P) seg') by (rewrite HP; apply nth_map_filter).
  assert (Hseg : asc (keys seg')) by (apply all_asc_nth; exact Hc).
  assert (Hsl : slice (c_start cfg) (c_end cfg) seg' = filter (kf (rng cfg)) seg')
    by (now apply slice_filter).
  destruct (upclosed_suffix (rng cfg) P seg' Hseg Hu) as [pre Hpre]. rewrite <- Hn in Hpre.
  set (r := nth i rem []) in *.
  assert (Hrne : r <> []) by (rewrite A; discriminate).
  destruct (i <? length (c_segs cfg)) eqn:Ei.
  - apply Nat.ltb_lt in Ei.
    replace (nth i (c_segs cfg) []) with seg' by (apply nth_with_ll_lt; exact Ei).
    destruct (slice_suffix_cursor (c_start cfg) (c_end cfg) seg' pre r) as [W1 W2]; auto.
    { rewrite Hsl. exact Hpre. }
    cbn [seg_cursor sc_seg sc_start sc_end sc_curr] in *. split.
    + cbn [wf_impl sc_seg]. split; [repeat split; auto|]. split; [exact W1|]. rewrite W2.
      split; [reflexivity|]. split; [rewrite <- Hv; exact Hh|]. exists P. auto.
    + cbn [raw_impl]. now rewrite W2, Hv.
  - apply Nat.ltb_ge in Ei.
    assert (Hset : forall y, In y seg' -> exists v, snd y = OSet v)
      by (intros y; now apply nth_with_ll_set).
    rewrite Hsl. split.
    + cbn [wf_impl]. split; [now apply (asc_map_filter fst)|]. split.
      * intros y Hy. apply filter_In in Hy. apply Hset. tauto.
      * intros y Hy. rewrite Hpre. apply in_or_app. now right.
    + cbn [raw_impl]. rewrite Hv. symmetry. apply vis_all_set.
      intros y Hy. apply Hset. rewrite Hn in Hy. apply filter_In in Hy. tauto.
Qed.

Lemma raw_current_ex st : wf_pre_fix st -> iter_current_ex st = hd_error (raw st).
Proof.
  intros [Hc [Hp Hw]]. unfold iter_current_ex, raw.
  destruct (st_impl st) as [rem|c cur|all rest]; cbn [wf_impl raw_impl] in *; auto.
  - rewrite Hp. exact (proj1 (heap_iterates _ Hc rem Hw)).
  - exact (proj1 (single_iterates _ _ (c, cur) Hw)).
Qed.

Theorem raw_next st : wf_pre_fix st ->
  let st' := fst (iter_next st) in
  wf_pre_fix st' /\ st_cfg st' = st_cfg st /\ same_kind (st_impl st) (st_impl st') /\
  raw st' = tl (raw st) /\ snd (iter_next st) = nonempty (tl (raw st)).
Proof.
  intros [Hc [Hp Hw]]. unfold iter_next, raw, wf_pre_fix.
  destruct (st_impl st) as [rem|c cur|all rest]; cbn [wf_impl raw_impl] in *.
  - rewrite Hp. destruct (heap_iterates _ Hc rem Hw) as (_ & A & R & O).
    destruct (heap_next _ _ rem) as [rem' ok].
    cbn [fst snd st_cfg st_pfx st_impl wf_impl raw_impl same_kind] in *. repeat split; assumption.
  - destruct (single_iterates _ _ (c, cur) Hw) as (_ & A & R & O). unfold snext in *. cbn [fst] in *.
    destruct (single_next _ c) as [[c' cur'] ok].
    cbn [fst snd st_cfg st_pfx st_impl wf_impl raw_impl same_kind] in *.
    rewrite (wf_single_seg _ _ _ _ A). split; [exact (conj Hc (conj Hp A))|]. repeat split; assumption.
  - cbn [fst snd st_cfg st_pfx st_impl wf_impl raw_impl same_kind].
    destruct Hw as [H1 [H2 H3]]. repeat split; auto.
    intros e He. apply H3. destruct rest; simpl in *; auto.
Qed.

Lemma raw_live st : wf_pre_fix st -> c_incl (st_cfg st) = false ->
  forall e, In e (raw st) -> is_del (snd e) = false.
Proof.
  intros [_ [_ Hw]] Hi e. unfold raw.
  destruct (st_impl st) as [rem|c cur|all rest]; cbn [wf_impl raw_impl] in *; rewrite ?Hi;
    try apply vis_live.
  intros He. destruct Hw as [_ [Hset Hsub]]. destruct (Hset e (Hsub e He)) as [v ->]. reflexivity.
Qed.

Lemma raw_suffix st : wf_pre_fix st ->
  match st_impl st with
  | ILower _ _ => True
  | i => asc (keys (range_impl (st_cfg st) i)) /\
         (forall e, In e (range_impl (st_cfg st) i) -> rng (st_cfg st) (fst e) = true) /\
         exists pre, range_impl (st_cfg st) i = pre ++ raw st
  end.
Proof.
  intros [Hc [_ Hw]]. unfold raw.
  destruct (st_impl st) as [rem|c cur|all rest]; cbn [wf_impl raw_impl range_impl] in *; auto.
  - destruct Hw as [P [-> [Hu _]]]. rewrite view_filter.
    apply (range_suffix _ (rng (st_cfg st)) P (view (all_segs (st_cfg st)))); [apply view_asc|exact Hu].
  - destruct Hw as [[_ [Ha _]] [_ [_ [_ [P [Hu HP]]]]]]. rewrite HP. now apply range_suffix.
Qed.

(* SeekTo: the lower-level iterator seeks on its own, the other two walk and restart *)
Theorem raw_seek x st : wf_pre_fix st ->
  let st' := fst (iter_seek x st) in
  wf_pre_fix st' /\ st_cfg st' = st_cfg st /\ same_kind (st_impl st) (st_impl st') /\
  raw st' = match st_impl st with
            | ILower all _ => drop_lt x all
            | i => seek_list is_del (c_start (st_cfg st)) (c_tries (st_cfg st))
                             (range_impl (st_cfg st) i) x (raw st)
            end /\
  snd (iter_seek x st) = nonempty (raw st').
Proof.
  intros [Hc [Hp Hw]]. unfold iter_seek, raw, wf_pre_fix.
  destruct (st_impl st) as [rem|c cur|all rest]; cbn [wf_impl raw_impl range_impl] in *.
  - rewrite Hp. destruct (heap_seek_raw _ x _ Hc Hw) as [A [B C]].
    destruct (heap_seek (st_cfg st) (cpfx (st_cfg st)) x rem) as [rem' ok].
    cbn [fst snd st_cfg st_pfx st_impl wf_impl raw_impl same_kind] in *. repeat split; assumption.
  - destruct (single_seek_raw _ _ _ _ x Hw) as [A [B C]].
    destruct (single_seek (st_cfg st) x c cur) as [[c' cur'] ok].
    cbn [fst snd st_cfg st_pfx st_impl wf_impl raw_impl same_kind] in *.
    rewrite (wf_single_seg _ _ _ _ A), B. split; [exact (conj Hc (conj Hp A))|]. repeat split; assumption.
  - cbn [fst snd st_cfg st_pfx st_impl wf_impl raw_impl same_kind]. rewrite skipn_lb.
    destruct Hw as [H1 [H2 H3]]. repeat split; auto. intros e He. eapply drop_lt_in; eauto.
Qed.

Definition start_with (cfg : config) (n : nat) : iter_state :=
  mk_st cfg (cpfx cfg) (optimize cfg n (heap_start cfg (c_start cfg))).

Lemma start_fixed cfg : iter_start cfg = start_with cfg (num_cursors_at_start cfg (c_start cfg)).
Proof. reflexivity. Qed.

Lemma heap_start_wf cfg : cfg_ok cfg ->
  wf_heap cfg (heap_start cfg (c_start cfg)) /\
  vis (c_incl cfg) (view (heap_start cfg (c_start cfg))) = vis (c_incl cfg) (raw_range cfg).
Proof.
  intros Hc. destruct (heap_start_spec cfg (c_start cfg) Hc) as [P [E1 [Hu [Hh Hv]]]].
  split; [exists P; auto|exact Hv].
Qed.

Lemma start_raw cfg n : cfg_ok cfg ->
  wf_pre_fix (start_with cfg n) /\ raw (start_with cfg n) = vis (c_incl cfg) (raw_range cfg).
Proof.
  intros Hc. destruct (heap_start_wf cfg Hc) as [Hw Hv].
  assert (Ho : wf_impl cfg (optimize cfg n (heap_start cfg (c_start cfg))) /\
               raw_impl cfg (optimize cfg n (heap_start cfg (c_start cfg)))
               = vis (c_incl cfg) (view (heap_start cfg (c_start cfg)))).
  { unfold optimize. destruct (Nat.eqb n 1); [now apply optimize_raw|auto]. }
  destruct Ho as [O1 O2]. unfold raw, start_with. cbn [st_cfg st_impl].
  split; [split; [exact Hc|split; [reflexivity|exact O1]]|]. now rewrite O2.
Qed.

Lemma scan_raw : forall fuel st, wf_pre_fix st -> length (raw st) <= S fuel ->
  scan_ex fuel st = raw st.
Proof.
  induction fuel as [|f IH]; intros st Hw Hl; cbn [scan_ex];
    rewrite (raw_current_ex st Hw); destruct (raw st) as [|e t] eqn:Er; auto; cbn [hd_error].
  - destruct t; [reflexivity|simpl in Hl; lia].
  - destruct (raw_next st Hw) as (Hw' & _ & _ & A & B).
    rewrite Er in A, B. cbn [tl] in A, B.
    destruct (iter_next st) as [st' ok]. cbn [fst snd] in *. subst ok.
    destruct t as [|e' t']; [reflexivity|]. cbn [nonempty]. f_equal.
    rewrite <- A. apply IH; auto. rewrite A. simpl in *. lia.
Qed.

Lemma raw_range_alt cfg :
  raw_range cfg = map (fun k => (k, nop (all_segs cfg) k))
                      (filter (in_range (c_start cfg) (c_end cfg)) (all_keys (all_segs cfg))).
Proof.
  unfold raw_range, view.
  apply (filter_map_fst (fun k => (k, nop (all_segs cfg) k)) (fun k => k) fst
           (in_range (c_start cfg) (c_end cfg))). reflexivity.
Qed.

(* the CurrentEx results under repeated Next *)
Lemma start_scan cfg n : cfg_ok cfg ->
  scan_ex (length (raw_range cfg)) (start_with cfg n) = vis (c_incl cfg) (raw_range cfg).
Proof.
  intros Hc. destruct (start_raw cfg n Hc) as [Hw Hr]. rewrite <- Hr. apply scan_raw; auto.
  rewrite Hr. pose proof (vis_length (c_incl cfg) (raw_range cfg)). lia.
Qed.

Lemma start_scan_incl cfg n : cfg_ok cfg -> c_incl cfg = true ->
  scan_ex (length (raw_range cfg)) (start_with cfg n)
  = map (fun k => (k, nop (all_segs cfg) k))
        (filter (in_range (c_start cfg) (c_end cfg)) (all_keys (all_segs cfg))).
Proof. intros Hc Hi. now rewrite (start_scan cfg n Hc), Hi, vis_true, <- raw_range_alt. Qed.

Lemma keys_ll_seg l : keys (ll_seg l) = map fst l.
Proof. unfold keys, ll_seg. rewrite map_map. reflexivity. Qed.

(* the hypotheses as stated by the caller *)
Lemma cfg_ok_intro cfg :
  (forall s, In s (c_segs cfg) -> asc (keys s)) ->
  (forall l, c_ll cfg = Some l -> asc (map fst l)) ->
  cfg_ok cfg.
Proof.
  intros H1 H2. unfold cfg_ok, all_asc, all_segs. apply Forall_forall. intros s Hs.
  destruct (c_ll cfg) as [l|] eqn:E; simpl in Hs; auto.
  apply in_app_or in Hs. destruct Hs as [Hs|[<-|[]]]; auto.
  rewrite keys_ll_seg. now apply H2.
Qed.

Fixpoint no_seek (prog : list call) : bool :=
  match prog with
  | [] => true
  | CSeek _ :: _ => false
  | _ :: p => no_seek p
  end.

(* A checkable sufficient condition for seek_safe (iter_start_pre_fix cfg): if the
   optimizer fires on cursor i, cursor i was already the only live cursor
   BEFORE the leading-deletion skip of startIterator. *)
Definition opt_safe_pre_fix (cfg : config) : bool :=
  match only_cursor (heap_start cfg (c_start cfg)) with
  | None => true
  | Some i =>
      match only_cursor (map (slice (c_start cfg) (c_end cfg)) (all_segs cfg)) with
      | Some j => Nat.eqb i j
      | None => false
      end
  end.

Section Main.
  Variable fm : bytes -> value -> bytes -> value.

  Definition valf (cfg : config) (e : entry) : bytes * value := (fst e, full_get fm cfg (fst e)).
  Definition eval0 (e : entry) : bytes * value := (fst e, apply_op fm (fst e) None (snd e)).

  Definition absH (cfg : config) (rem : list segment) : list (bytes * value) :=
    map (valf cfg) (vis (c_incl cfg) (view rem)).

  Lemma live_range_alt cfg : live_range fm cfg = map (valf cfg) (vis false (raw_range cfg)).
  Proof. reflexivity. Qed.

  Theorem C09_sorted cfg : asc (map fst (live_range fm cfg)).
  Proof.
    rewrite live_range_alt, map_map. apply (vis_asc false), raw_range_asc.
  Qed.

  Lemma live_range_lo cfg e : In e (live_range fm cfg) -> bleb (lo_key (c_start cfg)) (fst e) = true.
  Proof.
    intros H. apply in_map_iff in H. destruct H as [e0 [<- H]].
    unfold vis in H. apply filter_In in H. now apply raw_range_lo.
  Qed.

  (* the specification list, characterised *)
  Lemma live_range_spec cfg k v :
    In (k, v) (live_range fm cfg) <->
    in_range (c_start cfg) (c_end cfg) k = true /\
    (exists o, newest (all_segs cfg) k = Some o /\ o <> ODel) /\
    v = sget fm (c_segs cfg) (ll_get (c_ll cfg)) k.
  Proof.
    rewrite live_range_alt. unfold valf, full_get. rewrite in_map_iff. split.
    - intros [[k' o] [E H]]. simpl in E. injection E as -> <-.
      unfold vis in H. apply filter_In in H. destruct H as [H Hd].
      apply filter_In in H. destruct H as [H Hr]. apply view_in in H.
      split; [exact Hr|]. split; auto. exists o. split; auto.
      intros ->. discriminate.
    - intros [Hr [[o [Hn Ho]] ->]]. exists (k, o). split; auto.
      unfold vis. apply filter_In. split.
      + apply filter_In. split; [now apply view_in|exact Hr].
      + simpl. destruct o; auto.
  Qed.

  Definition cur_result (g : entry -> bytes * value) (l : segment) : result :=
    match l with
    | [] => RDone
    | e :: _ => if is_del (snd e) then RDeleted else RCur (fst e) (snd (g e))
    end.

  Lemma entry_result_cur older e :
    entry_result fm older e
    = if is_del (snd e) then RDeleted else RCur (fst e) (apply_op fm (fst e) (older (fst e)) (snd e)).
  Proof. destruct e as [k []]; reflexivity. Qed.

  Lemma cur_result_live g l : (forall e, fst (g e) = fst e) ->
    (forall e, In e l -> is_del (snd e) = false) -> cur_result g l = spec_current (map g l).
  Proof.
    intros Hg Hl. destruct l as [|e t]; auto. cbn [cur_result map spec_current].
    rewrite (Hl e (or_introl eq_refl)), <- (Hg e). now destruct (g e).
  Qed.

  (* Current on the heap: the minimum sits in slot i, no newer slot has its key, and the
     strictly older slots followed by the lower level give what it merges with *)
  Lemma heap_current_raw cfg rem : cfg_ok cfg -> wf_heap cfg rem ->
    heap_current fm cfg (cpfx cfg) rem = cur_result (valf cfg) (vis (c_incl cfg) (view rem)).
  Proof.
    intros Hc Hw. unfold heap_current.
    destruct (min_cursor (cpfx cfg) rem) as [[i [k o]]|] eqn:Hm; [|now rewrite (heap_empty _ _ Hm)].
    rewrite (heap_head _ _ _ _ _ Hc Hw Hm), entry_result_cur. cbn [cur_result valf fst snd].
    destruct (is_del o) eqn:Ed; [reflexivity|]. f_equal.
    destruct (min_cursor_spec _ _ _ _ _ (wf_heap_ok _ _ Hc Hw) Hm) as [_ C].
    destruct (min_cursor_nth _ _ _ _ Hm) as [t A].
    destruct Hw as [P [-> _]].
    assert (HPk : P k = true).
    { pose proof (@in_eq entry (k, o) t) as G.
      rewrite <- A, nth_map_filter in G. apply filter_In in G. tauto. }
    assert (Hi : find (nth i (all_segs cfg) []) k = Some o).
    { rewrite <- (find_nth_filter P _ _ _ HPk), A. simpl. now rewrite beqb_refl. }
    rewrite full_get_bridge, (sget_nth fm _ no_below i k o); auto.
    - destruct o as [v| |v]; try reflexivity. cbn [apply_op]. f_equal. symmetry.
      apply older_bridge. exact (merge_idx _ _ _ _ _ Hi).
    - intros j Hj. rewrite <- (find_nth_filter P _ _ _ HPk). now apply C.
  Qed.

  Definition absS (cfg : config) (c : scursor) : list (bytes * value) :=
    map eval0 (vis (c_incl cfg) (sc_rest c)).

  (* what a single segment (or the lower level alone) shows inside the bounds *)
  Definition SL (cfg : config) (seg : segment) : list (bytes * value) :=
    map eval0 (vis false (filter (kf (rng cfg)) seg)).

  Lemma sget_nth_none (T : list segment) k :
    (forall j, find (nth j T []) k = None) -> sget fm T no_below k = None.
  Proof.
    induction T as [|s r IH]; intros H; simpl; auto.
    pose proof (H 0) as H0. simpl in H0. rewrite H0. apply IH. intros j. apply (H (S j)).
  Qed.

  Lemma sget_only (T : list segment) i k o :
    (forall j, j <> i -> find (nth j T []) k = None) -> find (nth i T []) k = Some o ->
    sget fm T no_below k = apply_op fm k None o.
  Proof.
    revert i. induction T as [|s r IH]; intros i H1 H2.
    - destruct i; discriminate.
    - destruct i as [|i]; simpl in H2; simpl sget.
      + rewrite H2. rewrite sget_nth_none; auto. intros j. apply (H1 (S j)). discriminate.
      + pose proof (H1 0) as H0. simpl in H0. rewrite H0 by discriminate.
        apply (IH i); auto. intros j Hj. apply (H1 (S j)). congruence.
  Qed.

  Lemma only_full_get cfg P (rem : list segment) i e : cfg_ok cfg ->
    rem = map (filter (kf P)) (all_segs cfg) -> only_cursor rem = Some i -> In e (nth i rem []) ->
    full_get fm cfg (fst e) = apply_op fm (fst e) None (snd e).
  Proof.
    intros Hc -> Ho Hin. destruct (only_cursor_spec _ _ Ho) as [_ B]. destruct e as [k o]. cbn [fst snd].
    pose proof (all_asc_nth _ i (all_asc_filter P _ Hc)) as Hasc.
    assert (HPk : P k = true) by (rewrite nth_map_filter in Hin; apply filter_In in Hin; tauto).
    rewrite full_get_bridge. apply (sget_only _ i).
    - intros j Hj. rewrite <- (find_nth_filter P _ _ _ HPk), (B j Hj). reflexivity.
    - rewrite <- (find_nth_filter P _ _ _ HPk). now apply find_in_iff.
  Qed.

  Definition abs_impl (cfg : config) (i : impl) : list (bytes * value) :=
    match i with
    | IHeap rem => absH cfg rem
    | ISingle c _ => absS cfg c
    | ILower _ rest => map eval0 rest
    end.

  (* remaining entries *)
  Definition abs (st : iter_state) : list (bytes * value) := abs_impl (st_cfg st) (st_impl st).

  (* SeekTo on the optimized implementations looks at ONE segment only; it is
     right exactly when that segment alone already shows live_range *)
  Definition seek_safe (st : iter_state) : Prop :=
    match st_impl st with
    | IHeap _ => True
    | ISingle c _ => SL (st_cfg st) (sc_seg c) = live_range fm (st_cfg st)
    | ILower all _ => map eval0 all = live_range fm (st_cfg st)
    end.

  (* each entry's value: over the whole stack on the heap, from the one segment alone on the
     fast paths *)
  Definition valof (cfg : config) (i : impl) : entry -> bytes * value :=
    match i with IHeap _ => valf cfg | _ => eval0 end.

  Lemma abs_raw st : abs st = map (valof (st_cfg st) (st_impl st)) (raw st).
  Proof. unfold abs, raw. destruct (st_impl st); reflexivity. Qed.

  Lemma valof_fst cfg i e : fst (valof cfg i e) = fst e.
  Proof. destruct i; reflexivity. Qed.

  Lemma valof_kind cfg i i' : same_kind i i' -> valof cfg i' = valof cfg i.
  Proof. destruct i, i'; simpl; tauto. Qed.

  Lemma seek_safe_kind st st' : st_cfg st' = st_cfg st -> same_kind (st_impl st) (st_impl st') ->
    seek_safe st -> seek_safe st'.
  Proof.
    unfold seek_safe. intros ->. destruct (st_impl st), (st_impl st'); simpl; try tauto; now intros ->.
  Qed.

  Lemma seek_safe_range st : c_incl (st_cfg st) = false -> seek_safe st ->
    map (valof (st_cfg st) (st_impl st)) (range_impl (st_cfg st) (st_impl st)) = live_range fm (st_cfg st).
  Proof.
    unfold seek_safe. intros Hi. destruct (st_impl st); cbn [valof range_impl]; rewrite ?Hi; auto.
  Qed.

  Lemma optimize_abs cfg rem : cfg_ok cfg -> wf_heap cfg rem ->
    abs_impl cfg (optimize_pre_fix cfg rem) = absH cfg rem.
  Proof.
    intros Hc Hw. destruct (optimize_raw cfg rem Hc Hw) as [_ Hr].
    change (abs (mk_st cfg 0 (optimize_pre_fix cfg rem)) = absH cfg rem).
    rewrite abs_raw. unfold raw. cbn [st_cfg st_impl]. rewrite Hr. unfold absH, optimize_pre_fix.
    destruct (only_cursor rem) as [i|] eqn:Ho; [|reflexivity].
    assert (E : forall e, In e (vis (c_incl cfg) (view rem)) -> eval0 e = valf cfg e).
    { intros e He. unfold eval0, valf. f_equal. symmetry.
      rewrite (view_only rem i (proj1 (wf_heap_ok _ _ Hc Hw)) Ho) in He.
      destruct Hw as [P [HP _]]. apply (only_full_get cfg P rem i e Hc HP Ho).
      unfold vis in He. apply filter_In in He. tauto. }
    destruct (i <? length (c_segs cfg)); cbn [valof]; now apply map_ext_in.
  Qed.

  (* when one cursor exists before the leading-deletion skip, its segment alone shows the
     whole range, each entry with the value the whole stack gives it *)
  Lemma only_cursor_range cfg i : cfg_ok cfg ->
    only_cursor (map (slice (c_start cfg) (c_end cfg)) (all_segs cfg)) = Some i ->
    filter (kf (rng cfg)) (nth i (all_segs cfg) []) = raw_range cfg /\
    (forall e, In e (raw_range cfg) -> full_get fm cfg (fst e) = apply_op fm (fst e) None (snd e)).
  Proof.
    intros Hc Ho. rewrite (slices_filter cfg (c_start cfg) Hc) in Ho.
    pose proof (view_only _ i (all_asc_filter _ _ Hc) Ho) as Hv.
    rewrite view_filter in Hv. split; [rewrite nth_map_filter in Hv; symmetry; exact Hv|].
    intros e He. apply (only_full_get cfg _ _ i e Hc eq_refl Ho). rewrite <- Hv. exact He.
  Qed.

  Lemma seek_safe_optimize cfg pfx (rem : list segment) i : cfg_ok cfg ->
    only_cursor rem = Some i ->
    only_cursor (map (slice (c_start cfg) (c_end cfg)) (all_segs cfg)) = Some i ->
    seek_safe (mk_st cfg pfx (optimize_pre_fix cfg rem)).
  Proof.
    intros Hc E1 E2. destruct (only_cursor_range cfg i Hc E2) as [Hr Hf].
    assert (Hlive : SL cfg (nth i (all_segs cfg) []) = live_range fm cfg).
    { unfold SL. rewrite Hr, live_range_alt. apply map_ext_in. intros e He. unfold eval0, valf.
      f_equal. symmetry. apply Hf. unfold vis in He. apply filter_In in He. tauto. }
    unfold seek_safe, optimize_pre_fix. cbn [st_impl st_cfg]. rewrite E1.
    destruct (i <? length (c_segs cfg)) eqn:Ei; cbn [st_impl sc_seg seg_cursor].
    - apply Nat.ltb_lt in Ei. now rewrite <- (nth_with_ll_lt (c_segs cfg) (c_ll cfg) i Ei).
    - apply Nat.ltb_ge in Ei. rewrite slice_filter by (apply all_asc_nth; exact Hc).
      rewrite <- Hlive. unfold SL. f_equal. symmetry. apply vis_all_set.
      intros y Hy. apply filter_In in Hy. apply (nth_with_ll_set (c_segs cfg) (c_ll cfg) i); tauto.
  Qed.

  Lemma raw_current st : wf_pre_fix st ->
    iter_current fm st = cur_result (valof (st_cfg st) (st_impl st)) (raw st).
  Proof.
    intros [Hc [Hp Hw]]. unfold iter_current, raw.
    destruct (st_impl st) as [rem|c cur|all rest]; cbn [wf_impl raw_impl valof] in *.
    - rewrite Hp. now apply heap_current_raw.
    - destruct Hw as [_ [_ [-> [Hh _]]]]. rewrite <- (hd_vis_hd _ _ Hh).
      destruct (vis _ (sc_rest c)) as [|e t]; [reflexivity|apply entry_result_cur].
    - destruct rest as [|e t]; [reflexivity|apply entry_result_cur].
  Qed.

  Theorem C09_current_pre_fix st : wf_pre_fix st -> c_incl (st_cfg st) = false ->
    iter_current fm st = spec_current (abs st).
  Proof.
    intros Hw Hi. rewrite (raw_current st Hw), abs_raw. apply cur_result_live.
    - apply valof_fst.
    - now apply raw_live.
  Qed.

  Theorem C09_next_pre_fix st : wf_pre_fix st ->
    wf_pre_fix (fst (iter_next st)) /\
    st_cfg (fst (iter_next st)) = st_cfg st /\
    abs (fst (iter_next st)) = tl (abs st) /\
    snd (iter_next st) = nonempty (tl (abs st)).
  Proof.
    intros Hw. destruct (raw_next st Hw) as (A & B & K & R & O).
    split; [exact A|]. split; [exact B|].
    rewrite !abs_raw, B, (valof_kind _ _ _ K), R, <- map_tl, nonempty_map. auto.
  Qed.

  Lemma seek_safe_next_pre_fix st : wf_pre_fix st -> seek_safe st -> seek_safe (fst (iter_next st)).
  Proof.
    intros Hw. destruct (raw_next st Hw) as (_ & B & K & _). now apply seek_safe_kind.
  Qed.

  Theorem C09_seek_pre_fix x st : wf_pre_fix st -> c_incl (st_cfg st) = false -> seek_safe st ->
    wf_pre_fix (fst (iter_seek x st)) /\
    st_cfg (fst (iter_seek x st)) = st_cfg st /\
    seek_safe (fst (iter_seek x st)) /\
    abs (fst (iter_seek x st))
    = drop_lt (seek_bound (c_start (st_cfg st)) x) (live_range fm (st_cfg st)) /\
    snd (iter_seek x st) = nonempty (abs (fst (iter_seek x st))).
  Proof.
    intros Hw Hi Hs. destruct (raw_seek x st Hw) as (A & B & K & R & O).
    split; [exact A|]. split; [exact B|]. split; [exact (seek_safe_kind _ _ B K Hs)|].
    rewrite abs_raw, B, (valof_kind _ _ _ K), nonempty_map. split; [|exact O].
    rewrite R, <- (seek_safe_range st Hi Hs), (drop_lt_map _ _ _ (valof_fst _ _)). f_equal.
    pose proof (raw_suffix st Hw) as Hsuf.
    assert (Hnat : forall i, (asc (keys (range_impl (st_cfg st) i)) /\
                     (forall e, In e (range_impl (st_cfg st) i) -> rng (st_cfg st) (fst e) = true) /\
                     exists pre, range_impl (st_cfg st) i = pre ++ raw st) ->
              seek_list is_del (c_start (st_cfg st)) (c_tries (st_cfg st)) (range_impl (st_cfg st) i) x (raw st)
              = drop_lt (seek_bound (c_start (st_cfg st)) x) (range_impl (st_cfg st) i)).
    { intros i [Ha [Hr [pre Hpre]]]. apply (seek_list_natural is_del _ _ _ x _ pre); auto.
      - intros e He. now apply in_range_lo, Hr.
      - apply fwd_onto_del_nodel. now apply raw_live. }
    destruct (st_impl st) as [rem|c cur|all rest] eqn:Ei; [now apply Hnat|now apply Hnat|].
    symmetry. apply drop_lt_seek_bound. intros e He. apply (live_range_lo (st_cfg st) (eval0 e)).
    unfold seek_safe in Hs. rewrite Ei in Hs. rewrite <- Hs. now apply in_map.
  Qed.

  Theorem C09_done_sticky_pre_fix st : wf_pre_fix st -> c_incl (st_cfg st) = false -> abs st = [] ->
    iter_current fm st = RDone /\
    snd (iter_next st) = false /\
    abs (fst (iter_next st)) = [].
  Proof.
    intros Hw Hi Ha. rewrite (C09_current_pre_fix st Hw Hi), Ha.
    destruct (C09_next_pre_fix st Hw) as [_ [_ [B C]]]. rewrite B, C, Ha. auto.
  Qed.

  Lemma run_sim_pre_fix : forall prog st, wf_pre_fix st -> c_incl (st_cfg st) = false ->
    seek_safe st \/ no_seek prog = true ->
    run_calls fm st prog = run_spec_from fm (st_cfg st) (abs st) prog.
  Proof.
    induction prog as [|c p IH]; intros st Hw Hi Hs; auto.
    destruct c as [|x|]; cbn [run_calls run_spec_from].
    - destruct (C09_next_pre_fix st Hw) as [A [B [C D]]].
      pose proof (seek_safe_next_pre_fix st Hw) as E.
      destruct (iter_next st) as [st' ok]. cbn [fst snd] in *.
      rewrite D. f_equal. rewrite <- C, <- B. apply IH; auto; [congruence|].
      destruct Hs; auto.
    - destruct Hs as [Hs|Hs]; [|discriminate].
      destruct (C09_seek_pre_fix x st Hw Hi Hs) as [A [B [C [D E]]]].
      destruct (iter_seek x st) as [st' ok]. cbn [fst snd] in *.
      rewrite E, D. f_equal. rewrite <- D, <- B. apply IH; auto. congruence.
    - rewrite (C09_current_pre_fix st Hw Hi). f_equal. apply IH; auto.
  Qed.

  Lemma start_abs cfg n : cfg_ok cfg -> c_incl cfg = false ->
    abs (start_with cfg n) = live_range fm cfg.
  Proof.
    intros Hc Hi. destruct (heap_start_wf cfg Hc) as [Hw Hv].
    unfold abs, start_with, optimize. cbn [st_cfg st_impl].
    replace (abs_impl cfg _) with (absH cfg (heap_start cfg (c_start cfg)))
      by (destruct (Nat.eqb n 1); [symmetry; now apply optimize_abs|reflexivity]).
    unfold absH. now rewrite Hv, Hi.
  Qed.

  Theorem C09_wf_start_pre_fix cfg : cfg_ok cfg -> wf_pre_fix (iter_start_pre_fix cfg).
  Proof. intros Hc. apply (start_raw cfg 1 Hc). Qed.

  Theorem C09_start_pre_fix cfg : cfg_ok cfg -> c_incl cfg = false ->
    abs (iter_start_pre_fix cfg) = live_range fm cfg.
  Proof. exact (start_abs cfg 1). Qed.

  (* seek_safe (iter_start_pre_fix cfg) is the extra hypothesis the
     optimized single-cursor implementations need (see C09_seek_refuted below);
     it is `True` whenever the heap implementation is chosen. *)
  Theorem C09_program_pre_fix cfg prog : cfg_ok cfg -> c_incl cfg = false ->
    seek_safe (iter_start_pre_fix cfg) ->
    run_model_pre_fix fm cfg prog = run_spec fm cfg prog.
  Proof.
    intros Hc Hi Hs. unfold run_model_pre_fix, run_spec. rewrite <- (C09_start_pre_fix cfg Hc Hi).
    apply (run_sim_pre_fix prog (iter_start_pre_fix cfg)); auto. now apply C09_wf_start_pre_fix.
  Qed.

  (* without SeekTo no extra hypothesis is needed *)
  Theorem C09_program_noseek_pre_fix cfg prog : cfg_ok cfg -> c_incl cfg = false ->
    no_seek prog = true ->
    run_model_pre_fix fm cfg prog = run_spec fm cfg prog.
  Proof.
    intros Hc Hi Hs. unfold run_model_pre_fix, run_spec. rewrite <- (C09_start_pre_fix cfg Hc Hi).
    apply (run_sim_pre_fix prog (iter_start_pre_fix cfg)); auto. now apply C09_wf_start_pre_fix.
  Qed.

  Lemma opt_safe_seek_safe_pre_fix cfg : cfg_ok cfg -> opt_safe_pre_fix cfg = true -> seek_safe (iter_start_pre_fix cfg).
  Proof.
    intros Hc Ho. unfold opt_safe_pre_fix in Ho.
    destruct (only_cursor (heap_start cfg (c_start cfg))) as [i|] eqn:E1.
    - destruct (only_cursor (map (slice (c_start cfg) (c_end cfg)) (all_segs cfg))) as [j|] eqn:E2;
        [|discriminate].
      apply Nat.eqb_eq in Ho. subst j. now apply (seek_safe_optimize cfg _ _ i).
    - unfold seek_safe, iter_start_pre_fix, optimize_pre_fix. cbn [st_impl]. now rewrite E1.
  Qed.

  Corollary C09_program_opt_safe_pre_fix cfg prog : cfg_ok cfg -> c_incl cfg = false ->
    opt_safe_pre_fix cfg = true ->
    run_model_pre_fix fm cfg prog = run_spec fm cfg prog.
  Proof.
    intros Hc Hi Ho. apply C09_program_pre_fix; auto. now apply opt_safe_seek_safe_pre_fix.
  Qed.

  Theorem C09_raw_pre_fix cfg : cfg_ok cfg -> c_incl cfg = true ->
    scan_ex (length (raw_range cfg)) (iter_start_pre_fix cfg)
    = map (fun k => (k, nop (all_segs cfg) k))
          (filter (in_range (c_start cfg) (c_end cfg)) (all_keys (all_segs cfg))).
  Proof using fm. exact (start_scan_incl cfg 1). Qed.

  (* maxTries <= 0: the unbounded naive seek never reports ErrMaxTries,
     so the fuel used for it in Iterator.v is not observable *)

  Theorem naive_unbounded_heap cfg x rem : cfg_ok cfg -> wf_heap cfg rem ->
    c_tries cfg = 0 ->
    snd (naive_seek (fun r => option_map entry_key (heap_current_ex (cpfx cfg) r))
                    (heap_next (c_incl cfg) (cpfx cfg))
                    (naive_fuel (c_tries cfg) (total rem)) x rem) <> NMax.
  Proof using fm.
    intros Hc Hw Ht. rewrite Ht. apply (naive_no_max _ _ _ _ (heap_iterates cfg Hc)); auto.
    pose proof (heap_length (c_incl cfg) rem). cbn. lia.
  Qed.

  Theorem naive_unbounded_single cfg seg x c cur : wf_single cfg seg c cur ->
    c_tries cfg = 0 -> snd (snaive cfg x c cur) <> NMax.
  Proof using fm.
    intros Hw Ht. unfold snaive. rewrite Ht.
    apply (naive_no_max _ _ _ _ (single_iterates cfg seg) _ x (c, cur)); auto.
    destruct Hw as [Hfr [Hpos _]]. cbn.
    pose proof (vis_length (c_incl cfg) (sc_rest c)).
    pose proof (sc_rest_length c (frame_pos_ok _ _ _ Hfr Hpos)). lia.
  Qed.

  (* the repaired iterator: optimize() takes a fast path only when exactly
     one cursor existed before the leading-deletion skip
     (numCursorsAtStart == 1).  seek_safe then holds by construction and
     no extra hypothesis is left in the C09 theorems. *)

  (* reachable states of the repaired iterator *)
  Definition wf (st : iter_state) : Prop := wf_pre_fix st /\ seek_safe st.

  Theorem C09_wf_start cfg : cfg_ok cfg -> wf (iter_start cfg).
  Proof.
    intros Hc. split; [apply (start_raw cfg _ Hc)|].
    unfold iter_start, optimize.
    destruct (Nat.eqb (num_cursors_at_start cfg (c_start cfg)) 1) eqn:En; [|exact I].
    apply Nat.eqb_eq in En. unfold num_cursors_at_start in En.
    destruct (num_cursors_one _ En) as [j Ej].
    destruct (only_cursor (heap_start cfg (c_start cfg))) as [i|] eqn:Ei.
    - assert (i = j) as ->.
      { destruct (heap_start_spec cfg (c_start cfg) Hc) as [P [HP [Hu _]]].
        apply (only_cursor_same cfg P _ i j HP Hu Ei).
        rewrite (slices_filter cfg (c_start cfg) Hc) in Ej. exact Ej. }
      now apply (seek_safe_optimize cfg _ _ j).
    - unfold seek_safe, optimize_pre_fix. cbn [st_impl]. rewrite Ei. exact I.
  Qed.

  Theorem C09_start cfg : cfg_ok cfg -> c_incl cfg = false ->
    abs (iter_start cfg) = live_range fm cfg.
  Proof. exact (start_abs cfg _). Qed.

  Theorem C09_current st : wf st -> c_incl (st_cfg st) = false ->
    iter_current fm st = spec_current (abs st).
  Proof. intros [Hw _]. now apply C09_current_pre_fix. Qed.

  Theorem C09_next st : wf st ->
    wf (fst (iter_next st)) /\
    st_cfg (fst (iter_next st)) = st_cfg st /\
    abs (fst (iter_next st)) = tl (abs st) /\
    snd (iter_next st) = nonempty (tl (abs st)).
  Proof.
    intros [Hw Hs]. destruct (C09_next_pre_fix st Hw) as [A [B [C D]]].
    repeat split; auto; try apply A. now apply seek_safe_next_pre_fix.
  Qed.

  Theorem C09_seek x st : wf st -> c_incl (st_cfg st) = false ->
    wf (fst (iter_seek x st)) /\
    st_cfg (fst (iter_seek x st)) = st_cfg st /\
    abs (fst (iter_seek x st))
    = drop_lt (seek_bound (c_start (st_cfg st)) x) (live_range fm (st_cfg st)) /\
    snd (iter_seek x st) = nonempty (abs (fst (iter_seek x st))).
  Proof.
    intros [Hw Hs] Hi. destruct (C09_seek_pre_fix x st Hw Hi Hs) as [A [B [C [D E]]]].
    repeat split; auto; apply A.
  Qed.

  Theorem C09_done_sticky st : wf st -> c_incl (st_cfg st) = false -> abs st = [] ->
    iter_current fm st = RDone /\
    snd (iter_next st) = false /\
    abs (fst (iter_next st)) = [].
  Proof. intros [Hw _]. now apply C09_done_sticky_pre_fix. Qed.

  (* the repaired iterator: no extra hypothesis *)
  Theorem C09_program cfg prog : cfg_ok cfg -> c_incl cfg = false ->
    run_model fm cfg prog = run_spec fm cfg prog.
  Proof.
    intros Hc Hi. unfold run_model, run_spec. rewrite <- (C09_start cfg Hc Hi).
    destruct (C09_wf_start cfg Hc) as [Hw Hs].
    apply (run_sim_pre_fix prog (iter_start cfg)); auto.
  Qed.

  Theorem C09_raw cfg : cfg_ok cfg -> c_incl cfg = true ->
    scan_ex (length (raw_range cfg)) (iter_start cfg)
    = map (fun k => (k, nop (all_segs cfg) k))
          (filter (in_range (c_start cfg) (c_end cfg)) (all_keys (all_segs cfg))).
  Proof using fm. exact (start_scan_incl cfg _). Qed.
End Main.

(* what the optimized implementations get wrong before the repair *)

Local Open Scope N_scope.

Ltac solve_cfg_ok :=
  unfold cfg_ok, all_asc, all_segs; simpl;
  repeat (constructor; try reflexivity).

Definition kA : bytes := [97].   (* "a" *)
Definition kB : bytes := [98].   (* "b" *)
Definition kC : bytes := [99].
Definition kD : bytes := [100].
Definition kE : bytes := [101].

(* newer segment deletes "a"; the leading-deletion skip of startIterator
   exhausts it, optimize_pre_fix() then returns an iteratorSingle over the OLDER
   segment, and SeekTo("a") on that resurrects the deleted entry. *)
Definition cfg_r1 : config :=
  mk_cfg [[(kA, ODel)]; [(kA, OSet [1]); (kB, OSet [2])]] None None None false 100.

Theorem C09_seek_refuted :
  exists cfg x, cfg_ok cfg /\ c_incl cfg = false /\
    abs fm_append (fst (iter_seek x (iter_start_pre_fix cfg)))
    <> drop_lt (seek_bound (c_start cfg) x) (live_range fm_append cfg).
Proof.
  exists cfg_r1, kA. split; [solve_cfg_ok|]. split; [reflexivity|].
  vm_compute. discriminate.
Qed.

Theorem C09_program_refuted :
  exists cfg prog, cfg_ok cfg /\ c_incl cfg = false /\
    run_model_pre_fix fm_append cfg prog <> run_spec fm_append cfg prog.
Proof.
  exists cfg_r1, [CSeek kA; CCurrent]. split; [solve_cfg_ok|]. split; [reflexivity|].
  vm_compute. discriminate.
Qed.

(* same through the lower level: the lower-level iterator is returned as is *)
Definition cfg_r2 : config :=
  mk_cfg [[(kA, ODel)]] (Some [(kA, [1]); (kB, [2])]) None None false 100.

Theorem C09_program_lower_refuted :
  run_model_pre_fix fm_append cfg_r2 [CSeek kA; CCurrent] = [ROk; RCur kA (Some [1])] /\
  run_spec fm_append cfg_r2 [CSeek kA; CCurrent] = [ROk; RCur kB (Some [2])].
Proof. split; vm_compute; reflexivity. Qed.

(* iteratorSingle.Current merges against nil (no base): after the same kind of
   backward seek a Merge operand shadowed by a newer deletion is shown, merged
   with nothing although an older segment holds a base value. *)
Definition cfg_r3 : config :=
  mk_cfg [[(kA, ODel)]; [(kA, OMerge [120]); (kB, OSet [2])]; [(kA, OSet [7])]]
         None None None false 100.

Theorem C09_single_merge_refuted :
  run_model_pre_fix fm_append cfg_r3 [CSeek kA; CCurrent] = [ROk; RCur kA (Some [58; 120])] /\
  run_spec fm_append cfg_r3 [CSeek kA; CCurrent] = [ROk; RCur kB (Some [2])].
Proof. split; vm_compute; reflexivity. Qed.

(* with IncludeDeletions a forward SeekTo steps OVER deletion entries at or
   after the target (Current returns a nil key for them and
   bytes.Compare(x, nil) > 0), while a restart would have stopped on them *)
Definition cfg_r4 : config :=
  mk_cfg [[(kA, OSet [1]); (kC, ODel); (kD, OSet [4])]; [(kB, OSet [2])]] None None None true 100.

Theorem seek_skips_deletion_with_include_deletions :
  run_model fm_append cfg_r4 [CSeek kC; CCurrent] = [ROk; RCur kD (Some [4])] /\
  run_model fm_append cfg_r4 [CNext; CNext; CCurrent] = [ROk; ROk; RDeleted].
Proof. split; vm_compute; reflexivity. Qed.

Definition ex_s1 : segment := [(kA, ODel); (kC, OMerge [120])].
Definition ex_s2 : segment := [(kA, OSet [1]); (kB, OSet [2]); (kC, OSet [3]); (kD, ODel)].
Definition ex_ll : list kv := [(kB, [20]); (kD, [40]); (kE, [50])].

(* shadowing, tombstones, merge over an older Set, lower level *)
Example ex_scan :
  run_iter fm_append 100 false [ex_s1; ex_s2] (Some ex_ll) None None
           [CCurrent; CNext; CCurrent; CNext; CCurrent; CNext; CCurrent]
  = [RCur kB (Some [2]); ROk; RCur kC (Some [3; 58; 120]); ROk; RCur kE (Some [50]); RDone; RDone].
Proof. vm_compute. reflexivity. Qed.

(* forward, backward and past-the-end seeks *)
Example ex_seek :
  run_iter fm_append 100 false [ex_s1; ex_s2] (Some ex_ll) None None
           [CSeek kC; CCurrent; CSeek kA; CCurrent; CSeek [122]; CCurrent; CNext; CSeek kB; CCurrent]
  = [ROk; RCur kC (Some [3; 58; 120]); ROk; RCur kB (Some [2]); RDone; RDone; RDone; ROk;
     RCur kB (Some [2])].
Proof. vm_compute. reflexivity. Qed.

(* bounds sharing the prefix "k": prefixLen = 1; max_tries = 1 forces restarts *)
Definition pk (x : N) : bytes := [107; x].
Definition ex_p1 : segment := [(pk 1, OSet [1]); (pk 3, ODel); (pk 5, OMerge [33]); ([108], OSet [9])].
Definition ex_p2 : segment := [([106], OSet [0]); (pk 2, OSet [2]); (pk 3, OSet [3]); (pk 5, OSet [5]); (pk 7, OSet [7])].

Example ex_prefix :
  run_iter fm_append 1 false [ex_p1; ex_p2] None (Some (pk 1)) (Some (pk 9))
           [CCurrent; CSeek (pk 5); CCurrent; CNext; CCurrent; CSeek [0]; CCurrent; CNext; CNext; CCurrent]
  = [RCur (pk 1) (Some [1]); ROk; RCur (pk 5) None; ROk; RCur (pk 7) (Some [7]); ROk;
     RCur (pk 1) (Some [1]); ROk; ROk; RCur (pk 5) None].
Proof. vm_compute. reflexivity. Qed.

Example ex_prefix_len : prefix_len (Some (pk 1)) (Some (pk 9)) = 1%nat.
Proof. reflexivity. Qed.

(* model = spec on these (instances of C09_program_pre_fix, by computation) *)
Example ex_model_spec :
  let cfg := mk_cfg [ex_s1; ex_s2] (Some ex_ll) (Some kB) (Some kE) false 1 in
  let prog := [CCurrent; CSeek kE; CCurrent; CSeek kA; CCurrent; CSeek kD; CCurrent; CNext] in
  run_model fm_append cfg prog = run_spec fm_append cfg prog /\
  run_model fm_append cfg prog = [RCur kB (Some [2]); RDone; RDone; ROk; RCur kB (Some [2]); RDone; RDone; RDone].
Proof. split; vm_compute; reflexivity. Qed.

(* raw enumeration with IncludeDeletions *)
Example ex_raw :
  scan_ex 10 (iter_start (mk_cfg [ex_s1; ex_s2] (Some ex_ll) None None true 100))
  = [(kA, ODel); (kB, OSet [2]); (kC, OMerge [120]); (kD, ODel); (kE, OSet [50])].
Proof. vm_compute. reflexivity. Qed.

(* the repaired iterator on the three refutation inputs: now as specified *)
Example ex_repaired :
  run_model fm_append cfg_r1 [CSeek kA; CCurrent] = [ROk; RCur kB (Some [2])] /\
  run_model fm_append cfg_r2 [CSeek kA; CCurrent] = [ROk; RCur kB (Some [2])] /\
  run_model fm_append cfg_r3 [CSeek kA; CCurrent] = [ROk; RCur kB (Some [2])] /\
  run_iter fm_append 100 false [[(kA, ODel)]; [(kA, OSet [1]); (kB, OSet [2])]] None None None
           [CCurrent; CSeek kA; CCurrent; CNext; CSeek kA; CCurrent]
  = [RCur kB (Some [2]); ROk; RCur kB (Some [2]); RDone; ROk; RCur kB (Some [2])] /\
  run_iter_pre_fix fm_append 100 false [[(kA, ODel)]; [(kA, OSet [1]); (kB, OSet [2])]] None None None
           [CCurrent; CSeek kA; CCurrent; CNext; CSeek kA; CCurrent]
  = [RCur kB (Some [2]); ROk; RCur kA (Some [1]); ROk; ROk; RCur kA (Some [1])].
Proof. repeat split; vm_compute; reflexivity. Qed.

(* the fast paths are still taken when they are safe: a single live segment *)
Example ex_fast_path_kept :
  (match st_impl (iter_start (mk_cfg [[(kA, ODel); (kB, OSet [2])]; []] None None None false 100)) with
   | ISingle _ _ => true | _ => false end) = true /\
  (match st_impl (iter_start (mk_cfg [[]] (Some [(kA, [1])]) None None false 100)) with
   | ILower _ _ => true | _ => false end) = true /\
  (match st_impl (iter_start cfg_r1) with IHeap _ => true | _ => false end) = true /\
  (match st_impl (iter_start_pre_fix cfg_r1) with ISingle _ _ => true | _ => false end) = true.
Proof. repeat split; vm_compute; reflexivity. Qed.

(* main theorems, repaired iterator *)
Print Assumptions C09_prefix_strip.
Print Assumptions C09_sorted.
Print Assumptions C09_wf_start.
Print Assumptions C09_start.
Print Assumptions C09_current.
Print Assumptions C09_next.
Print Assumptions C09_seek.
Print Assumptions C09_done_sticky.
Print Assumptions C09_program.
Print Assumptions C09_raw.
(* iterator of the pinned commit *)
Print Assumptions C09_seek_pre_fix.
Print Assumptions C09_program_pre_fix.
Print Assumptions C09_program_noseek_pre_fix.
Print Assumptions C09_program_opt_safe_pre_fix.
Print Assumptions C09_raw_pre_fix.
Print Assumptions C09_seek_refuted.
Print Assumptions C09_program_refuted.
Print Assumptions C09_program_lower_refuted.
Print Assumptions C09_single_merge_refuted.
