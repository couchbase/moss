(* Sync2Run.v - executable glue that runs the fine-grained wait/notify model
   (Sync2.v) in lock step with the sync family of the Go harness
   (harness/director/famsync.go, ordinary cases).

   A harness label is ONE action from outside (a call is made, or an actor is
   let through a gate) followed by everything the real goroutines then do by
   themselves until every one of them is parked at a gate, blocked, asleep or
   gone (famsync.go: settle / quiesce / waitPark).  The model does the same:
   the external or gated step(s) of the label, then `settle` fires enabled
   FREE steps in a fixed priority order until none is enabled.

   Gating.  The ordinary cases of the family open the collection with gating
   on (harness.go: open) and nothing switches it off before Close.  closeAll
   starts Close, waits until the collection reports closed, THEN switches
   gating off and releases whoever is parked (and keeps releasing what still
   arrives at a gate).  So: the gated steps are held exactly while z_closed is
   false.  The gate "merger:wait" is off in these cases (h.gateWait = 0).

   Executable definitions, and computed examples; that apply_label only ever
   takes `step` transitions is proved in Sync2RunFacts.v. *)
From Coq Require Import List Arith Bool.
From Moss Require Import Sync2.
Import ListNotations.
Open Scope nat_scope.

Inductive harness_label := HArrive | HIngest | HCycleEnd | HNotifySync | HClose.

(* calls from outside: made by the harness, never by the system itself *)
Definition external (l : step_label) : bool :=
  match l with LWCall | LNCall _ | LCBegin => true | _ => false end.

(* steps in front of which the instrumented code calls verifGate (Sync2.gate_of) *)
Definition gated (l : step_label) : bool :=
  match l with
  | LMIngest | LMMergeOk | LMMergeFail | LMHandover | LPUpdOk | LPUpdFail | LPPublish => true
  | _ => false
  end.

(* steps the lock-step never takes: the oracles succeed (string-append merge operator, no
   injected lower-level failure in these cases), and the steps that only a seeded defect has *)
Definition never (l : step_label) : bool :=
  match l with LMMergeFail | LPUpdFail | LWRelock | LPSendLocked => true | _ => false end.

(* gating is on until the harness has seen the collection closed *)
Definition gating (s : state) : bool := negb (z_closed s).

(* what the real system does by itself between two harness labels *)
Definition free_in (g : bool) (l : step_label) : bool :=
  negb (external l) && negb (never l) && negb (g && gated l).

(* the two instances, for reference: while the collection is open / after Close has begun *)
Definition free : step_label -> bool := free_in true.
Definition free_closed : step_label -> bool := free_in false.

(* Candidate steps in priority order.  Where the real code has a genuine race the order
   picks the outcome that the goroutine already blocked in the select takes (the stop case
   of a notifier that waits for its pong is ready the moment Close closes stopCh, its pong
   only after the merger has run on); the counts the harness reports are the same for
   every order (the runner compares answered + failed notifications as one number).
     writers first (they only need the lock), then notifiers, merger, persister, closer. *)
Definition candidates (s : state) : list step_label :=
  [LWCloseInc; LWCloseOld; LWRecheck;
   LNSend true; LNSend false; LNStopSend true; LNStopSend false; LNStopWaitP]
  ++ map LNStopWaitQ (seq 0 (List.length (z_q s)))
  ++ [LMReply; LMCheck; LMSelStop; LMSelInc; LMSelPing; LMDrain;
      LMIngest; LMMergeOk; LMHandover; LMOutWake; LMOutStop; LMExit;
      LPTop; LPChk; LPUpdOk; LPPublish; LPCloseOut;
      LCJoinM; LCJoinP; LCFinal].

Fixpoint first_enabled (c : config) (s : state) (ls : list step_label)
  : option (step_label * state) :=
  match ls with
  | [] => None
  | l :: r => match step c s l with
              | Some s' => Some (l, s')
              | None => first_enabled c s r
              end
  end.

Definition next_free (c : config) (s : state) : option (step_label * state) :=
  first_enabled c s (filter (free_in (gating s)) (candidates s)).

Fixpoint settle (c : config) (fuel : nat) (s : state) : state :=
  match fuel with
  | 0 => s
  | S f => match next_free c s with
           | Some (_, s') => settle c f s'
           | None => s
           end
  end.

(* the same, with the labels taken: for replay files and for the examples below *)
Fixpoint settle_trace (c : config) (fuel : nat) (s : state) : list step_label :=
  match fuel with
  | 0 => []
  | S f => match next_free c s with
           | Some (l, s') => l :: settle_trace c f s'
           | None => []
           end
  end.

(* nothing free is enabled: the state a settled harness observation corresponds to *)
Definition quiescent (c : config) (s : state) : bool :=
  match next_free c s with None => true | Some _ => false end.

(* far above what one label can set off with the few dozen callers of a case; the runner
   checks `quiescent` after every label and reports when the fuel did not suffice *)
Definition settle_fuel : nat := 2000.

(* The action from outside, per label (famsync.go, the switch in famSync):
   arrive      a goroutine calls ExecuteBatch                                  LWCall
   ingest      releaseActor(merger) at "merger:ingest", waitPark "merger:swap" LMIngest
   cycleend    release at "merger:swap", waitPark "merger:handover", release,
               quiesce                                            LMMergeOk, then LMHandover
   notifysync  a goroutine calls NotifyMerger(sync)           LNCall true (the send is free)
   close       closeAll: Close() is called; gating goes off once closed           LCBegin *)
Definition ext_steps (l : harness_label) : list step_label :=
  match l with
  | HArrive => [LWCall]
  | HIngest => [LMIngest]
  | HCycleEnd => [LMMergeOk; LMHandover]
  | HNotifySync => [LNCall true]
  | HClose => [LCBegin]
  end.

(* every action from outside is followed by what the system does by itself *)
Fixpoint drive (c : config) (s : state) (ls : list step_label) : option state :=
  match ls with
  | [] => Some s
  | l :: r => match step c s l with
              | Some s' => drive c (settle c settle_fuel s') r
              | None => None
              end
  end.

Definition apply_label (c : config) (s : state) (l : harness_label) : option state :=
  drive c s (ext_steps l).

(* the state of a collection that has been opened and has quiesced (harness.go: open):
   the merger has looked for work, found none and sleeps *)
Definition start (c : config) : state := settle c settle_fuel (init c).

(* a whole case *)
Fixpoint apply_labels (c : config) (s : state) (ls : list harness_label) : option state :=
  match ls with
  | [] => Some s
  | l :: r => match apply_label c s l with Some s' => apply_labels c s' r | None => None end
  end.

(* the configurations of the ordinary cases: no lower level, no dirty limits *)
Definition cfg_sync (cap : nat) : config :=
  {| c_cap := cap; c_qcap := 10; c_ll := false; c_over := fun _ _ _ => false |}.

(* what the harness line of a label is compared with *)
Definition obs_top (s : state) : nat := o_top (observe s).
Definition obs_blocked (s : state) : nat := o_blocked (observe s).
Definition obs_ok (s : state) : nat := o_ok (observe s).
Definition obs_closedret (s : state) : nat := o_closedret (observe s).
(* famsync.go counts a synchronous NotifyMerger as returned whatever it returned *)
Definition obs_syncdone (s : state) : nat := o_syncret (observe s) + o_notiferr (observe s).
Definition obs_syncret (s : state) : nat := o_syncret (observe s).
Definition obs_closed (s : state) : bool := o_closed (observe s).
(* the merger is parked at this gate (0 = none, 1 ingest, 2 swap, 3 handover) *)
Definition obs_mgate (s : state) : nat :=
  match z_mp s with MIngest => 1 | MMerge => 2 | MHandover => 3 | _ => 0 end.
(* ... or asleep in mergerWaitForWork's select *)
Definition obs_asleep (s : state) : bool :=
  match z_mp s with MSelect => true | _ => false end.

(* ---- the label-to-schedule maps of Sync2.v, re-derived by settle ---- *)

(* the first arrival on a fresh collection wakes the sleeping merger, which parks at the
   ingest gate; ingest; the cycle's end is Sync2.sched_cycleend_noll and two more steps
   (nothing is pending: the merger arms its channel and sleeps) *)
Example settle_from_init :
  settle_trace (cfg_sync 1) settle_fuel (init (cfg_sync 1)) = [LMReply; LMCheck].
Proof. vm_compute. reflexivity. Qed.

Example arrive_wakes_merger :
  let c := cfg_sync 1 in
  let s0 := start c in
  match step c s0 LWCall with
  | Some s1 => settle_trace c settle_fuel s1 = [LWCloseInc; LMSelInc; LMDrain]
  | None => False
  end.
Proof. vm_compute. reflexivity. Qed.

Example cycleend_is_sched_noll :
  let c := cfg_sync 1 in
  let s0 := start c in
  match apply_label c s0 HArrive with
  | Some s1 =>
      match apply_label c s1 HIngest with
      | Some s2 =>
          match run c s2 [LMMergeOk; LMHandover] with
          | Some s3 =>
              [LMMergeOk; LMHandover] ++ settle_trace c settle_fuel s3 = sched_cycleend_noll
              /\ apply_label c s2 HCycleEnd = Some (settle c settle_fuel s3)
              /\ obs_asleep (settle c settle_fuel s3) = true
          | None => False
          end
      | None => False
      end
  | None => False
  end.
Proof. vm_compute. repeat split; reflexivity. Qed.

Example notifysync_is_sched :
  let c := cfg_sync 1 in
  let s0 := start c in
  match step c s0 (LNCall true) with
  | Some s1 =>
      firstn 2 (LNCall true :: settle_trace c settle_fuel s1) = sched_notifysync
      /\ obs_mgate (settle c settle_fuel s1) = 1
  | None => False
  end.
Proof. vm_compute. repeat split; reflexivity. Qed.
