From Coq Require Import List NArith Bool Lia.
From Moss Require Import Bytes.

Lemma bcmp_refl a : bcmp a a = Eq.
Proof. induction a as [|x a IH]; simpl; [reflexivity|]. now rewrite N.compare_refl. Qed.

Lemma bcmp_eq a b : bcmp a b = Eq <-> a = b.
Proof.
  split; [|intros ->; apply bcmp_refl].
  revert b; induction a as [|x a IH]; intros [|y b]; simpl; try discriminate; auto.
  destruct (N.compare x y) eqn:E; try discriminate.
  apply N.compare_eq in E; subst. intros H; f_equal; auto.
Qed.

Lemma bcmp_antisym a b : bcmp b a = CompOpp (bcmp a b).
Proof.
  revert b; induction a as [|x a IH]; intros [|y b]; simpl; auto.
  rewrite (N.compare_antisym x y). destruct (N.compare x y); simpl; auto.
Qed.

Lemma bcmp_lt_gt a b : bcmp a b = Lt <-> bcmp b a = Gt.
Proof. rewrite (bcmp_antisym a b). destruct (bcmp a b); simpl; split; congruence. Qed.

Lemma bcmp_trans a b c : bcmp a b = Lt -> bcmp b c = Lt -> bcmp a c = Lt.
Proof.
  revert b c; induction a as [|x a IH]; intros [|y b] [|z c]; simpl; try discriminate; auto.
  destruct (N.compare x y) eqn:E1; try discriminate;
  destruct (N.compare y z) eqn:E2; try discriminate; intros H1 H2.
  - apply N.compare_eq in E1, E2; subst. rewrite N.compare_refl. eauto.
  - apply N.compare_eq in E1; subst. now rewrite E2.
  - apply N.compare_eq in E2; subst. now rewrite E1.
  - rewrite N.compare_lt_iff in *. assert (H: (x < z)%N) by lia.
    apply N.compare_lt_iff in H. now rewrite H.
Qed.

Lemma bcmp_lt_irrefl a : bcmp a a <> Lt.
Proof. rewrite bcmp_refl; discriminate. Qed.

Lemma bcmp_eq_l a b c : bcmp a b = Eq -> bcmp a c = bcmp b c.
Proof. intros H; apply bcmp_eq in H; now subst. Qed.

Lemma bcmp_gt_lt a b : bcmp a b = Gt -> bcmp b a = Lt.
Proof. intros H. now apply bcmp_lt_gt. Qed.

Lemma bcmp_spec a b : CompareSpec (a = b) (blt a b) (blt b a) (bcmp a b).
Proof.
  destruct (bcmp a b) eqn:E; constructor; [now apply bcmp_eq|exact E|now apply bcmp_gt_lt].
Qed.

Lemma bcmp_le_lt_trans a b c : bcmp a b <> Gt -> bcmp b c = Lt -> bcmp a c = Lt.
Proof.
  intros H1 H2. destruct (bcmp_spec a b) as [->|H|H]; [exact H2|eapply bcmp_trans; eauto|now destruct H1].
Qed.

Lemma bcmp_lt_le_trans a b c : bcmp a b = Lt -> bcmp b c <> Gt -> bcmp a c = Lt.
Proof.
  intros H1 H2. destruct (bcmp_spec b c) as [<-|H|H]; [exact H1|eapply bcmp_trans; eauto|now destruct H2].
Qed.

Lemma beqb_true a b : beqb a b = true <-> a = b.
Proof. unfold beqb. rewrite <- bcmp_eq. destruct (bcmp a b); split; congruence. Qed.

Lemma beqb_refl a : beqb a a = true.
Proof. now apply beqb_true. Qed.

Lemma beqb_false a b : beqb a b = false <-> a <> b.
Proof. rewrite <- beqb_true. destruct (beqb a b); split; congruence. Qed.

Lemma beqb_sym a b : beqb a b = beqb b a.
Proof.
  destruct (beqb a b) eqn:E.
  - apply beqb_true in E; subst; now rewrite beqb_refl.
  - symmetry. apply beqb_false. apply beqb_false in E. congruence.
Qed.

Lemma bltb_true a b : bltb a b = true <-> bcmp a b = Lt.
Proof. unfold bltb; destruct (bcmp a b); split; congruence. Qed.

Lemma bltb_irrefl a : bltb a a = false.
Proof. unfold bltb. now rewrite bcmp_refl. Qed.

Lemma bleb_true a b : bleb a b = true <-> bcmp a b <> Gt.
Proof. unfold bleb. destruct (bcmp a b); split; congruence. Qed.

Lemma bleb_refl a : bleb a a = true.
Proof. unfold bleb. now rewrite bcmp_refl. Qed.

Lemma bltb_false a b : bltb a b = false <-> bleb b a = true.
Proof.
  unfold bltb, bleb. rewrite (bcmp_antisym a b). destruct (bcmp a b); simpl; split; congruence.
Qed.

Lemma bleb_false a b : bleb a b = false <-> bltb b a = true.
Proof.
  unfold bltb, bleb. rewrite (bcmp_antisym a b). destruct (bcmp a b); simpl; split; congruence.
Qed.

Lemma bltb_bleb a b : bltb a b = true -> bleb a b = true.
Proof. unfold bltb, bleb. destruct (bcmp a b); congruence. Qed.

Lemma bleb_trans a b c : bleb a b = true -> bleb b c = true -> bleb a c = true.
Proof.
  intros H1 H2. apply bleb_true in H1. apply bleb_true in H2. apply bleb_true.
  destruct (bcmp b c) eqn:E; try congruence.
  - apply bcmp_eq in E; subst; auto.
  - rewrite (bcmp_le_lt_trans _ _ _ H1 E). discriminate.
Qed.

Lemma bltb_bleb_trans a b c : bltb a b = true -> bleb b c = true -> bltb a c = true.
Proof.
  intros H1 H2. apply bltb_true in H1. apply bleb_true in H2. apply bltb_true.
  exact (bcmp_lt_le_trans _ _ _ H1 H2).
Qed.

Lemma bleb_antisym a b : bleb a b = true -> bleb b a = true -> a = b.
Proof.
  unfold bleb. rewrite (bcmp_antisym a b). destruct (bcmp a b) eqn:E; simpl; try discriminate.
  intros _ _. now apply bcmp_eq.
Qed.

Lemma bcmp_app_prefix p a b : bcmp (p ++ a) (p ++ b) = bcmp a b.
Proof. induction p as [|x p IH]; simpl; auto. now rewrite N.compare_refl. Qed.

Lemma bcmp_nil_l a : bcmp [] a <> Gt.
Proof. destruct a; simpl; discriminate. Qed.

Lemma bleb_nil a : bleb [] a = true.
Proof. apply bleb_true, bcmp_nil_l. Qed.
