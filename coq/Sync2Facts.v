(* Sync2Facts.v - the wait/notify protocol of Sync2.v: what each step computes where it is
   enabled, the invariant of the current code with the safety theorems read off it, and the
   seeded defects, each refuted on a computed schedule *)
From Coq Require Import List Arith Bool Lia.
Import ListNotations.
From Moss Require Import Sync2.

Definition pz (p : mpc) : bool := match p with MCheck | MSelect | MExit | MDone => true | _ => false end.
Definition mexiting (p : mpc) : bool := match p with MExit | MDone => true | _ => false end.
Definition cjoinedM (p : cpc) : bool := match p with CJoinP | CFinal | CRet => true | _ => false end.
Definition cjoinedP (p : cpc) : bool := match p with CFinal | CRet => true | _ => false end.

Ltac zs := cbn [pz mexiting cjoinedM cjoinedP z_top z_mid z_base z_closed z_armed z_incc z_out z_onext z_oready z_q z_lk z_mp z_pongs z_hp z_pp z_cp z_wwait z_wwoken z_wsort z_wclcur z_wclold z_wok z_werr z_nsyn z_nasy z_nans z_naret z_nerr set_top set_mid set_base set_closed set_armed set_incc set_out set_onext set_oready set_q set_lk set_mp set_pongs set_hp set_pp set_cp set_wwait set_wwoken set_wsort set_wclcur set_wclold set_wok set_werr set_nsyn set_nasy set_nans set_naret set_nerr] in *.

Ltac b2p :=
  repeat match goal with
  | H : (_ && _) = true |- _ => apply andb_true_iff in H; destruct H
  | H : (_ || _) = false |- _ => apply orb_false_iff in H; destruct H
  | H : (_ && _) = false |- _ => apply andb_false_iff in H; destruct H
  | H : negb _ = true |- _ => apply negb_true_iff in H
  | H : negb _ = false |- _ => apply negb_false_iff in H
  | H : (_ <=? _) = true |- _ => apply Nat.leb_le in H
  | H : (_ <=? _) = false |- _ => apply Nat.leb_gt in H
  | H : (_ <? _) = true |- _ => apply Nat.ltb_lt in H
  | H : (_ <? _) = false |- _ => apply Nat.ltb_ge in H
  | H : (_ =? _) = true |- _ => apply Nat.eqb_eq in H
  | H : (_ =? _) = false |- _ => apply Nat.eqb_neq in H
  end.

(* split a hypothesis  step c s l = Some s'  into its cases *)
Ltac step_cases H :=
  unfold step, step_gen, guard in H;
  repeat match type of H with
    | (match ?x with _ => _ end) = Some _ =>
        let E := fresh "E" in destruct x eqn:E; try discriminate H
    end;
  injection H as H; subst.

Ltac goal_cases :=
  repeat match goal with
    | |- context[match ?x with _ => _ end] => let E := fresh "E" in destruct x eqn:E
    end.

Ltac chain := repeat match goal with
  | H : ?A, I : ?A -> _ |- _ => specialize (I H)
  | I : ?x = ?x -> _ |- _ => specialize (I eq_refl)
  end.

(* the 22 clauses of the invariant inv below, numbered in the order they are written *)
Ltac inv_clauses I :=
  destruct I as (I1&I2&I3&I4&I5&I6&I7&I8&I9&I10&I11&I12&I13&I14&I15&I16&I17&I18&I19&I20&I21&I22).

Section Facts.
Variable c : config.

Lemma writer_enter_closed r s :
  z_closed s = true -> writer_enter MutNone c r s = set_werr (S (z_werr s)) s.
Proof. intros E. unfold writer_enter. rewrite E. destruct (_ && _); reflexivity. Qed.

Lemma writer_enter_accepted r s :
  z_closed s = false -> z_top s < c_cap c ->
  writer_enter MutNone c r s =
  if z_armed s then set_armed false (set_wclcur (S (z_wclcur s)) (set_top (S (z_top s)) s))
  else set_wok (S (z_wok s)) (set_top (S (z_top s)) s).
Proof.
  intros E L. apply Nat.leb_gt in L. unfold writer_enter. rewrite E, L. reflexivity.
Qed.

Lemma step_LWCall s : z_lk s = false -> step c s LWCall = Some (writer_enter MutNone c false s).
Proof. intros L. unfold step, step_gen. rewrite L. reflexivity. Qed.

Lemma step_LWRecheck s :
  z_lk s = false -> 0 < z_wwoken s ->
  step c s LWRecheck = Some (writer_enter MutNone c true (set_wwoken (z_wwoken s - 1) s)).
Proof. intros L W. apply Nat.ltb_lt in W. unfold step, step_gen. rewrite L, W. reflexivity. Qed.

Lemma step_LWCloseInc s :
  0 < z_wclcur s ->
  step c s LWCloseInc =
  Some (set_wok (S (z_wok s)) (set_incc true (set_wclcur (z_wclcur s - 1) s))).
Proof. intros W. apply Nat.ltb_lt in W. unfold step, step_gen. rewrite W. reflexivity. Qed.

Lemma step_LWCloseOld s :
  0 < z_wclold s ->
  step c s LWCloseOld = Some (set_wok (S (z_wok s)) (set_wclold (z_wclold s - 1) s)).
Proof. intros W. apply Nat.ltb_lt in W. unfold step, step_gen. rewrite W. reflexivity. Qed.

Lemma step_LNSend_sync s :
  0 < z_nsyn s -> room c s = true ->
  step c s (LNSend true) = Some (set_q (z_q s ++ [true]) (set_nsyn (z_nsyn s - 1) s)).
Proof. intros N R. apply Nat.ltb_lt in N. unfold step, step_gen. rewrite N, R. reflexivity. Qed.

Lemma step_LNSend_async s :
  0 < z_nasy s -> room c s = true ->
  step c s (LNSend false) =
  Some (set_naret (S (z_naret s)) (set_q (z_q s ++ [false]) (set_nasy (z_nasy s - 1) s))).
Proof. intros N R. apply Nat.ltb_lt in N. unfold step, step_gen. rewrite N, R. reflexivity. Qed.

Lemma step_LNStopSend_sync s :
  z_closed s = true -> 0 < z_nsyn s ->
  step c s (LNStopSend true) = Some (set_nerr (S (z_nerr s)) (set_nsyn (z_nsyn s - 1) s)).
Proof. intros E N. apply Nat.ltb_lt in N. unfold step, step_gen. rewrite E, N. reflexivity. Qed.

Lemma step_LNStopSend_async s :
  z_closed s = true -> 0 < z_nasy s ->
  step c s (LNStopSend false) = Some (set_nerr (S (z_nerr s)) (set_nasy (z_nasy s - 1) s)).
Proof. intros E N. apply Nat.ltb_lt in N. unfold step, step_gen. rewrite E, N. reflexivity. Qed.

Lemma step_LNStopWaitP s :
  z_closed s = true -> 0 < z_pongs s ->
  step c s LNStopWaitP = Some (set_nerr (S (z_nerr s)) (set_pongs (z_pongs s - 1) s)).
Proof. intros E N. apply Nat.ltb_lt in N. unfold step, step_gen. rewrite E, N. reflexivity. Qed.

Lemma step_LNStopWaitQ s n q' :
  z_closed s = true -> orphan_nth n (z_q s) = Some q' ->
  step c s (LNStopWaitQ n) = Some (set_nerr (S (z_nerr s)) (set_q q' s)).
Proof. intros E Q. unfold step, step_gen. rewrite E, Q. reflexivity. Qed.

Lemma step_LMReply s :
  z_mp s = MReply ->
  step c s LMReply = Some (set_mp MCheck (set_pongs 0 (set_nans (z_nans s + z_pongs s) s))).
Proof. intros E. unfold step, step_gen. rewrite E. reflexivity. Qed.

(* the merger goes to sleep on an empty top unless a skipped hand-over is to be retried *)
Lemma step_LMCheck s :
  z_mp s = MCheck -> z_lk s = false ->
  step c s LMCheck =
  Some (if (z_top s =? 0) && negb (z_hp s && z_mid s && negb (z_base s)) then
          set_mp MSelect (set_hp false (set_armed true (set_incc false
            (set_wclold (z_wclold s + z_wclcur s) (set_wclcur 0 s)))))
        else set_mp MDrain (set_hp false s)).
Proof. intros E L. unfold step, step_gen. rewrite E, L. reflexivity. Qed.

Lemma step_LMSelStop s :
  z_mp s = MSelect -> z_closed s = true -> step c s LMSelStop = Some (set_mp MExit s).
Proof. intros E Cl. unfold step, step_gen. rewrite E, Cl. reflexivity. Qed.

Lemma step_LMSelPing s b r :
  z_mp s = MSelect -> z_q s = b :: r ->
  step c s LMSelPing =
  Some (set_mp MDrain (set_q r (set_pongs (z_pongs s + (if b then 1 else 0)) s))).
Proof. intros E Q. unfold step, step_gen. rewrite E, Q. reflexivity. Qed.

Lemma step_LMSelInc s :
  z_mp s = MSelect -> z_incc s = true -> step c s LMSelInc = Some (set_mp MDrain s).
Proof. intros E Ei. unfold step, step_gen. rewrite E, Ei. reflexivity. Qed.

Lemma step_LMDrain s :
  z_mp s = MDrain ->
  step c s LMDrain = Some (set_mp MIngest (set_q [] (set_pongs (z_pongs s + nsync (z_q s)) s))).
Proof. intros E. unfold step, step_gen. rewrite E. reflexivity. Qed.

Lemma step_LMIngest s :
  z_mp s = MIngest -> z_lk s = false ->
  step c s LMIngest = Some (set_mp MMerge (broadcast_top (set_mid true (set_top 0 s)))).
Proof. intros E L. unfold step, step_gen. rewrite E, L. reflexivity. Qed.

Lemma step_LMMergeOk s :
  z_mp s = MMerge -> z_lk s = false -> step c s LMMergeOk = Some (set_mp MHandover s).
Proof. intros E L. unfold step, step_gen. rewrite E, L. reflexivity. Qed.

Lemma step_LMOutStop s g :
  z_mp s = MWaitOut g -> z_closed s = true -> step c s LMOutStop = Some (set_mp MReply s).
Proof. intros E Cl. unfold step, step_gen. rewrite E, Cl. reflexivity. Qed.

Lemma step_LMOutWake s g :
  z_mp s = MWaitOut g -> z_oready s = true -> step c s LMOutWake = Some (set_mp MReply s).
Proof. intros E R. unfold step, step_gen. rewrite E, R. reflexivity. Qed.

Lemma step_LMExit s :
  z_mp s = MExit ->
  step c s LMExit =
  Some (set_mp MDone (set_q [] (set_pongs 0
          (set_nans (z_nans s + z_pongs s + nsync (z_q s)) s)))).
Proof. intros E. unfold step, step_gen. rewrite E. reflexivity. Qed.

(* a writer's pending close may move from the current generation of the wake-up channel to
   the old ones *)
Definition same_callers (s s' : state) : Prop :=
  z_top s' = z_top s /\ z_wwait s' = z_wwait s /\ z_wwoken s' = z_wwoken s /\ z_q s' = z_q s /\
  z_nsyn s' = z_nsyn s /\ z_nasy s' = z_nasy s /\ z_pongs s' = z_pongs s /\
  z_wclcur s' + z_wclold s' = z_wclcur s + z_wclold s.

Definition hands_over (s : state) : bool := c_ll c && negb (z_base s) && z_mid s.

Lemma step_LMHandover s :
  z_mp s = MHandover -> z_lk s = false ->
  exists s', step c s LMHandover = Some s' /\ same_callers s s' /\
    z_closed s' = z_closed s /\ z_cp s' = z_cp s /\
    (z_pp s' = z_pp s \/ z_pp s = PWait /\ z_pp s' = PWoken) /\
    (z_mp s' = MReply \/ exists g, z_mp s' = MWaitOut g /\ z_oready s' = false) /\
    (if hands_over s then z_mid s' = false /\ z_base s' = true
     else z_mid s' = z_mid s /\ z_base s' = z_base s) /\
    z_hp s' && z_mid s' && negb (z_base s') = false.
Proof.
  destruct s. unfold step, step_gen, same_callers, hands_over, broadcast_base. cbn. intros -> ->.
  destruct (c_ll c); cbn.
  - destruct z_base, z_mid, z_pp; cbn;
    repeat (match goal with |- context[match ?x with _ => _ end] => destruct x end; cbn);
    eexists; (split; [reflexivity|]); cbn; repeat split; eauto.
  - eexists; split; [reflexivity|]. cbn. repeat split; auto.
Qed.

Lemma step_LPTop_busy s :
  z_pp s = PTop \/ z_pp s = PWoken -> z_lk s = false ->
  z_base s = true \/ z_closed s = true -> step c s LPTop = Some (set_pp PChk s).
Proof.
  intros E L B.
  assert (X : negb (z_base s) && negb (z_closed s) = false).
  { destruct B as [-> | ->]; [|rewrite andb_false_r]; reflexivity. }
  unfold step, step_gen. destruct E as [-> | ->]; rewrite L, X; reflexivity.
Qed.

(* the idle persister pings a sleeping merger that still holds a merged stack *)
Lemma step_LPTop_ping s :
  z_pp s = PTop \/ z_pp s = PWoken -> z_lk s = false ->
  z_base s = false -> z_closed s = false ->
  z_armed s = true -> z_mid s = true -> z_top s = 0 -> room c s = true ->
  step c s LPTop = Some (set_pp PWait (set_q (z_q s ++ [false]) s)).
Proof.
  intros E L B Cl A M T R. unfold step, step_gen.
  destruct E as [-> | ->]; rewrite L, B, Cl, A, M, T, R; reflexivity.
Qed.

Lemma step_LPChk s :
  z_pp s = PChk ->
  step c s LPChk = Some (if z_closed s then set_pp PDone s else set_pp PUpdate s).
Proof. intros E. unfold step, step_gen. rewrite E. reflexivity. Qed.

Lemma step_LPUpdOk s : z_pp s = PUpdate -> step c s LPUpdOk = Some (set_pp PPublish s).
Proof. intros E. unfold step, step_gen. rewrite E. reflexivity. Qed.

Lemma step_LPPublish s :
  z_pp s = PPublish -> z_lk s = false ->
  step c s LPPublish = Some (set_pp (PCloseOut (z_out s)) (set_out None (set_base false s))).
Proof. intros E L. unfold step, step_gen. rewrite E, L. reflexivity. Qed.

Lemma step_LPCloseOut s og :
  z_pp s = PCloseOut og ->
  step c s LPCloseOut =
  Some (set_pp PTop match og, z_mp s with
                    | Some g, MWaitOut g' => if g =? g' then set_oready true s else s
                    | _, _ => s
                    end).
Proof. intros E. unfold step, step_gen. rewrite E. reflexivity. Qed.

Lemma step_LCJoinM s :
  z_cp s = CJoinM -> z_mp s = MDone -> step c s LCJoinM = Some (set_cp CJoinP s).
Proof. intros E M. unfold step, step_gen. rewrite E, M. reflexivity. Qed.

Lemma step_LCJoinP s :
  z_cp s = CJoinP -> z_pp s = PDone -> step c s LCJoinP = Some (set_cp CFinal s).
Proof. intros E P. unfold step, step_gen. rewrite E, P. reflexivity. Qed.

Lemma step_LCFinal s :
  z_cp s = CFinal -> z_lk s = false ->
  step c s LCFinal = Some (set_cp CRet (set_base false (set_mid false (set_top 0 s)))).
Proof. intros E L. unfold step, step_gen. rewrite E, L. reflexivity. Qed.

Lemma step_closed s l s' :
  step c s l = Some s' ->
  z_closed s' = match l with LCBegin => true | _ => z_closed s end.
Proof.
  intros H. destruct l; step_cases H;
  unfold writer_enter, broadcast_base, broadcast_top; goal_cases; zs; congruence.
Qed.

Lemma closed_stays s l s' : step c s l = Some s' -> z_closed s = true -> z_closed s' = true.
Proof. intros H Cl. rewrite (step_closed _ _ _ H). destruct l; auto. Qed.

Lemma bg_keeps_open s l s' :
  step c s l = Some s' -> bg l = true -> z_closed s = false -> z_closed s' = false.
Proof. intros H B Cl. rewrite (step_closed _ _ _ H). destruct l; auto; discriminate B. Qed.

Lemma run_app m s ls1 ls2 :
  run_gen m c s (ls1 ++ ls2) =
  match run_gen m c s ls1 with Some s1 => run_gen m c s1 ls2 | None => None end.
Proof.
  revert s; induction ls1 as [|l r IH]; intros s; simpl; auto.
  destruct (step_gen m c s l); auto.
Qed.

Lemma run_cons s l s1 ls s' :
  step c s l = Some s1 -> run c s1 ls = Some s' -> run c s (l :: ls) = Some s'.
Proof. unfold run, step. intros St R. simpl. rewrite St. exact R. Qed.

Lemma run_ind m (P : state -> Prop) ls : forall s s',
  (forall s l s', In l ls -> P s -> step_gen m c s l = Some s' -> P s') ->
  P s -> run_gen m c s ls = Some s' -> P s'.
Proof.
  induction ls as [|l r IH]; simpl; intros s s' St Ps H.
  - injection H as <-. exact Ps.
  - destruct (step_gen m c s l) as [s1|] eqn:E; [|discriminate].
    apply (IH s1); [intros; eapply St; eauto| |exact H]. eapply St; eauto.
Qed.

Definition progresses (mu : state -> nat) (s : state) : Prop :=
  exists l s', bg l = true /\ step c s l = Some s' /\ mu s' < mu s.

Lemma progress_by mu s l s' :
  step c s l = Some s' -> bg l = true -> mu s' < mu s -> progresses mu s.
Proof. intros St B D. exists l, s'. auto. Qed.

Lemma drain (I done : state -> Prop) (mu : state -> nat) :
  (forall s, I s -> done s \/ exists l s', bg l = true /\ step c s l = Some s' /\ mu s' < mu s /\ I s') ->
  forall s, I s ->
  exists ls s', Forall (fun l => bg l = true) ls /\ length ls <= mu s /\
                run c s ls = Some s' /\ done s' /\ I s'.
Proof.
  intros Step s. destruct (ex_intro (fun n => mu s <= n) (mu s) (le_n _)) as [n Hn]. revert s Hn.
  induction n as [|n IH]; intros s Hn Is;
  (destruct (Step s Is) as [D|(l & s1 & B & St & Lt & I1)];
   [exists [], s; split; [constructor|]; split; [apply Nat.le_0_l|]; split; [reflexivity|auto]|]).
  - inversion Hn as [Z|]. rewrite Z in Lt. inversion Lt.
  - destruct (IH s1) as (ls & s' & F & L & R & D); [apply Nat.lt_succ_r; eapply Nat.lt_le_trans; eauto|exact I1|].
    exists (l :: ls), s'. split; [constructor; auto|]. split; [exact (Nat.le_trans _ _ _ (le_n_S _ _ L) Lt)|].
    split; [exact (run_cons _ _ _ _ _ St R)|exact D].
Qed.

(* the invariant of the current code (Horn clauses, so that it can be used by forward chaining) *)
Definition inv (s : state) : Prop :=
  z_top s <= c_cap c /\
  z_lk s = false /\
  z_wsort s = 0 /\
  z_pp s <> PSendLocked /\
  (0 < z_wwait s -> z_top s = c_cap c) /\
  (0 < z_wwait s -> z_closed s = false) /\
  (z_armed s = true -> z_top s = 0) /\
  (z_mp s = MSelect -> z_armed s = false -> z_incc s = false -> 0 < z_wclcur s) /\
  (pz (z_mp s) = true -> z_pongs s = 0) /\
  (z_pp s = PWait -> z_base s = false) /\
  (z_pp s = PWait -> z_closed s = false) /\
  (forall g, z_mp s = MWaitOut g -> z_oready s = false -> z_out s <> Some g ->
             z_pp s = PCloseOut (Some g)) /\
  (z_out s <> None -> z_cp s <> CRet -> z_base s = true) /\
  (z_pp s = PDone -> c_ll c = true -> z_closed s = true) /\
  (c_ll c = false -> z_base s = false) /\
  (c_ll c = false -> z_out s = None) /\
  (c_ll c = false -> z_pp s = PDone) /\
  (z_closed s = true -> z_cp s <> CIdle) /\
  (z_closed s = false -> z_cp s = CIdle) /\
  (mexiting (z_mp s) = true -> z_closed s = true) /\
  (cjoinedM (z_cp s) = true -> z_mp s = MDone) /\
  (cjoinedP (z_cp s) = true -> z_pp s = PDone).

Lemma inv_init : inv (init c).
Proof.
  unfold inv, init; zs. destruct (c_ll c); repeat split; intros; auto; try discriminate; lia.
Qed.

Lemma inv_step s l s' : inv s -> step c s l = Some s' -> inv s'.
Proof.
  intros I H.
  (* one goal per branch of the step *)
  destruct l; step_cases H.
  all: unfold writer_enter, broadcast_base, broadcast_top, room in *; goal_cases.
  all: inv_clauses I; unfold inv; zs.
  (* a clause that reads no field the step wrote is its own hypothesis *)
  all: repeat split; try assumption.
  all: intros; b2p; try congruence.
  all: chain; try congruence; try lia.
  all: try (apply I13; congruence).
  (* the rest needs a clause whose premise the case split has decided *)
  all: repeat match goal with E : ?x = _, J : context[?x] |- _ => rewrite E in J end; zs; chain;
       try congruence.
  (* LPPublish while the merger waits on generation g: g is the generation being published *)
  destruct (z_out s) as [x|]; [destruct (Nat.eq_dec x g); [congruence|] |];
  assert (PPublish = PCloseOut (Some g)) by (apply I12; congruence); discriminate.
Qed.

Definition reachable (s : state) : Prop := exists ls, run c (init c) ls = Some s.

Lemma inv_run ls s s' : inv s -> run c s ls = Some s' -> inv s'.
Proof. apply run_ind. intros s0 l s1 _. apply inv_step. Qed.

Lemma inv_lk s : inv s -> z_lk s = false.
Proof. intros I. apply I. Qed.

Lemma closed_no_waiter s : inv s -> z_closed s = true -> z_wwait s = 0.
Proof.
  intros I Cl. inv_clauses I. destruct (z_wwait s); [reflexivity|].
  rewrite I6 in Cl by apply Nat.lt_0_succ. discriminate.
Qed.

Lemma open_not_exiting s : inv s -> z_closed s = false -> mexiting (z_mp s) = false.
Proof.
  intros I Cl. inv_clauses I. destruct (mexiting (z_mp s)); [|reflexivity].
  rewrite I20 in Cl by reflexivity. discriminate.
Qed.

(* a merger asleep with its wake-up channel open and no writer about to close it:
   the channel is the armed one, so the top is empty *)
Lemma asleep_armed s :
  inv s -> z_mp s = MSelect -> z_incc s = false -> z_wclcur s = 0 ->
  z_armed s = true /\ z_top s = 0.
Proof.
  intros I E Ei W. inv_clauses I. destruct (z_armed s); [auto|].
  specialize (I8 E eq_refl Ei). rewrite W in I8. inversion I8.
Qed.

(* whoever makes the merger wait on the dirty limits will release it: the persister is about
   to close the outgoing channel of that generation, or still holds the stack *)
Lemma waitout_owner s g :
  inv s -> z_closed s = false -> z_mp s = MWaitOut g -> z_oready s = false ->
  z_pp s = PCloseOut (Some g) \/ z_out s = Some g /\ z_base s = true.
Proof.
  intros I Cl E R. inv_clauses I.
  destruct (z_out s) as [x|] eqn:Eo; [destruct (Nat.eq_dec x g) as [->|]|].
  - right. split; [reflexivity|]. apply I13; [discriminate|]. rewrite (I19 Cl). discriminate.
  - left. apply (I12 g E R). congruence.
  - left. apply (I12 g E R). discriminate.
Qed.

Lemma waitout_closeout s g :
  inv s -> z_closed s = false -> z_mp s = MWaitOut g -> z_oready s = false ->
  z_base s = false -> z_pp s = PCloseOut (Some g).
Proof.
  intros I Cl E R B. destruct (waitout_owner s g I Cl E R) as [P|[_ P]]; [exact P|congruence].
Qed.

(* the persister is blocked only inside its Wait, and only on an open collection without a
   stack of its own; it is gone only after Close or where there is no lower level *)
Lemma persister_parked s :
  inv s -> z_pp s <> PSendLocked /\
           (z_pp s = PWait -> z_base s = false /\ z_closed s = false) /\
           (z_pp s = PDone -> c_ll c = true -> z_closed s = true).
Proof. intros I. inv_clauses I. auto. Qed.

Lemma orphan_nsync : forall n q q',
  orphan_nth n q = Some q' -> nsync q = S (nsync q') /\ length q' = length q.
Proof.
  induction n as [|k IH]; intros [|b r] q' H; simpl in H; try discriminate.
  - destruct b; try discriminate. injection H as <-. simpl. auto.
  - destruct (orphan_nth k r) as [r'|] eqn:E; [|destruct b; discriminate].
    assert (H' : Some (b :: r') = Some q') by (destruct b; exact H).
    injection H' as <-. destruct (IH r r' E) as [A B]. simpl. rewrite A, B. split; auto; lia.
Qed.

Lemma orphan_exists : forall q, 0 < nsync q -> exists n q', orphan_nth n q = Some q'.
Proof.
  induction q as [|b r IH]; simpl; intros H; [inversion H|].
  destruct b.
  - exists 0, (false :: r). reflexivity.
  - destruct (IH H) as (n & r' & E). exists (S n), (false :: r'). simpl. rewrite E. reflexivity.
Qed.

Definition is_stop (l : step_label) : bool :=
  match l with LNStopSend _ | LNStopWaitQ _ | LNStopWaitP => true | _ => false end.

(* notifiers in flight: about to send, or waiting for their pong *)
Definition notif_pending (s : state) : nat := z_nsyn s + z_nasy s + waitpong s.

(* the repaired sleep decision of the merger (collection_merger.go 683d401: handoverPending,
   retryHandover): (K1) past a hand-over attempt that left something in stackDirtyMid the
   merger remembers it; (K2) a sleeping merger with unpersisted stackDirtyMid, an idle
   persister and an empty stackDirtyBase can be woken.  Not invariants of LMMergeFail: a
   failed merge skips the hand-over attempt and clears the flag (`continue OUTER`). *)
Definition afterh (p : mpc) : bool :=
  match p with MReply | MCheck | MWaitOut _ => true | _ => false end.

Definition invK (s : state) : Prop :=
  (c_ll c = true -> z_mid s = true -> afterh (z_mp s) = true -> z_hp s = true) /\
  (c_ll c = true -> z_mp s = MSelect -> z_mid s = true -> z_base s = false -> z_pp s = PWait ->
   length (z_q s) = 0 -> z_incc s = false -> 0 < z_wclcur s).

Lemma invK_init : invK (init c).
Proof. unfold invK, init; zs. split; intros; discriminate. Qed.

(* the ping queue holds at least one ping: a persister that never found room for its ping
   would break K2 *)
Lemma invK_step s l s' :
  1 <= c_qcap c -> inv s -> invK s -> l <> LMMergeFail -> step c s l = Some s' -> invK s'.
Proof.
  intros qcap_pos I K NF H. unfold invK in K.
  destruct l; try congruence; step_cases H.
  all: unfold writer_enter, broadcast_base, broadcast_top, room in *; goal_cases.
  all: destruct K as [K1 K2]; unfold invK; zs; cbn [afterh] in *.
  all: repeat match goal with E : ?x = _ |- context[?x] => rewrite E end.
  all: split; try assumption.
  all: intros; try discriminate; b2p; chain; try congruence; try lia.
  (* a ping has just been queued *)
  all: try (rewrite app_length in *; cbn [length] in *; lia).
  (* the persister goes to wait without a ping: the merger does not sleep on an armed channel *)
  all: try (inv_clauses I; destruct (z_armed s) eqn:Ea; chain; congruence || lia).
Qed.

Definition reachable_nf (s : state) : Prop :=
  exists ls, ~ In LMMergeFail ls /\ run c (init c) ls = Some s.

Lemma invK_run ls s s' :
  1 <= c_qcap c -> inv s -> invK s -> ~ In LMMergeFail ls -> run c s ls = Some s' -> inv s' /\ invK s'.
Proof.
  intros Q I K NF. apply (run_ind _ (fun s => inv s /\ invK s)); [|auto].
  intros s0 l s1 L [I0 K0] St. split; [eapply inv_step; eauto|].
  apply (invK_step s0 l); auto. intros ->. exact (NF L).
Qed.

(* the theorems are stated for MaxPreMergerBatches >= 1 and a ping queue of capacity >= 1 *)
Hypothesis cap_pos : 1 <= c_cap c.
Hypothesis qcap_pos : 1 <= c_qcap c.

Theorem reachable_inv s : reachable s -> inv s.
Proof using cap_pos qcap_pos. intros [ls H]. eapply inv_run; [apply inv_init | exact H]. Qed.

Theorem bounded_top2 s : reachable s -> z_top s <= c_cap c.
Proof using cap_pos qcap_pos. intros R. apply reachable_inv in R. apply R. Qed.

(* no lost wake-up: a writer inside stackDirtyTopCond.Wait() that no Broadcast has
   reached yet (the woken ones are counted in z_wwoken) really is held back: the
   top is full and the collection is open *)
Theorem no_lost_wakeup s :
  reachable s -> 0 < z_wwait s -> z_top s = c_cap c /\ z_closed s = false.
Proof using cap_pos qcap_pos. intros R W. apply reachable_inv in R. inv_clauses R. auto. Qed.

(* nobody blocks while holding the collection lock: between two steps the lock
   is free, i.e. every critical section runs to its Unlock / Wait without a
   blocking operation in it *)
Theorem no_block_under_lock s : reachable s -> z_lk s = false.
Proof using cap_pos qcap_pos. intros R. apply reachable_inv in R. apply R. Qed.

(* after Close a new ExecuteBatch reports ErrClosed and changes nothing else; so
   does a writer that was blocked *)
Theorem after_close_execute_batch s :
  reachable s -> z_closed s = true ->
  exists s', step c s LWCall = Some s' /\ z_werr s' = S (z_werr s) /\ z_wok s' = z_wok s /\
             z_top s' = z_top s /\ z_wwait s' = z_wwait s /\ z_wclcur s' = z_wclcur s.
Proof using cap_pos qcap_pos.
  intros R Cl. eexists. split; [apply step_LWCall, (reachable_inv s R)|].
  rewrite writer_enter_closed by exact Cl. repeat split; reflexivity.
Qed.

Theorem after_close_blocked_writer s s' :
  reachable s -> z_closed s = true -> step c s LWRecheck = Some s' ->
  z_werr s' = S (z_werr s) /\ z_wwoken s' = z_wwoken s - 1 /\ z_top s' = z_top s.
Proof using Type.
  intros _ Cl H. step_cases H. rewrite writer_enter_closed by exact Cl. repeat split; reflexivity.
Qed.

(* Close releases the notifiers (the repaired NotifyMerger, collection_merger.go 31-45): once
   stopCh is closed (already from LCBegin on, not only after Close has returned) every
   NotifyMerger call in flight has an enabled step of its own with which it returns
   ErrClosed - whatever the merger, the persister, the queue or the lock are doing *)
Theorem close_releases_all s :
  z_closed s = true -> 0 < notif_pending s ->
  exists l s', is_stop l = true /\ step c s l = Some s' /\
               S (notif_pending s') = notif_pending s /\ z_nerr s' = S (z_nerr s) /\
               z_nans s' = z_nans s.
Proof using cap_pos qcap_pos.
  intros Cl P. unfold notif_pending, waitpong in *.
  destruct (Nat.eq_0_gt_0_cases (z_nsyn s)) as [C1|C1].
  2:{ exists (LNStopSend true). eexists. split; [reflexivity|].
      split; [apply step_LNStopSend_sync; assumption|].
      zs. repeat split; lia. }
  destruct (Nat.eq_0_gt_0_cases (z_nasy s)) as [C2|C2].
  2:{ exists (LNStopSend false). eexists. split; [reflexivity|].
      split; [apply step_LNStopSend_async; assumption|].
      zs. repeat split; lia. }
  destruct (Nat.eq_0_gt_0_cases (z_pongs s)) as [C3|C3].
  2:{ exists LNStopWaitP. eexists. split; [reflexivity|].
      split; [apply step_LNStopWaitP; assumption|].
      zs. repeat split; lia. }
  destruct (orphan_exists (z_q s)) as (n & q' & E); [lia|].
  destruct (orphan_nsync _ _ _ E) as [A _].
  exists (LNStopWaitQ n). eexists. split; [reflexivity|].
  split; [apply (step_LNStopWaitQ s n q'); assumption|].
  zs. repeat split; lia.
Qed.

(* ... and a call made after Close does not block either: it returns ErrClosed *)
Theorem notify_after_close_returns s b :
  z_closed s = true ->
  exists s1 s2, step c s (LNCall b) = Some s1 /\ step c s1 (LNStopSend b) = Some s2 /\
                notif_pending s2 = notif_pending s /\ z_nerr s2 = S (z_nerr s).
Proof using cap_pos qcap_pos.
  intros Cl. unfold notif_pending, waitpong.
  destruct b; eexists _, _; (split; [reflexivity|]).
  - split; [apply step_LNStopSend_sync; [exact Cl|apply Nat.lt_0_succ]|]. zs. split; lia.
  - split; [apply step_LNStopSend_async; [exact Cl|apply Nat.lt_0_succ]|]. zs. split; lia.
Qed.

Theorem reachable_nf_inv s : reachable_nf s -> inv s /\ invK s.
Proof using cap_pos qcap_pos. intros (ls & NF & H). eapply invK_run; eauto using inv_init, invK_init. Qed.

End Facts.

(* the five seeded defects are visible in this model: for each, the theorem it
   breaks is false for the mutated step function, by a computed witness *)
Definition reachable_gen (m : mutation) (c : config) (s : state) : Prop :=
  exists ls, run_gen m c (init c) ls = Some s.

(* no background / in-flight step is enabled *)
Definition stuck (m : mutation) (c : config) (s : state) : Prop :=
  forall l, bg l = true -> step_gen m c s l = None.

Definition cfg_plain := {| c_cap := 1; c_qcap := 10; c_ll := true; c_over := fun _ _ _ => false |}.
Definition cfg_limits :=
  {| c_cap := 1; c_qcap := 10; c_ll := true; c_over := fun t m b => (0 <? t) || m || b |}.
Definition cfg_noll := {| c_cap := 1; c_qcap := 10; c_ll := false; c_over := fun _ _ _ => false |}.

Ltac stuck_tac := intros l B; destruct l; try discriminate B;
  try (match goal with b : bool |- _ => destruct b end); vm_compute; reflexivity.

(* Mut1: the persister's ping is a blocking send under the collection lock.  The
   schedule of the harness's stall scenario: base busy, mid left behind, the merger
   woken by a ping (waitDirtyIncomingCh still armed) and parked before its ingest,
   ten more pings fill the queue, the persister publishes and loops around. *)
Definition sched_mut1 : list step_label :=
  [LMReply; LMCheck; LPTop;
   LWCall; LWCloseInc; LMSelInc; LMDrain; LMIngest; LMMergeOk; LMHandover;
   LPTop; LPChk;
   LMReply; LMCheck;
   LWCall; LWCloseInc; LMSelInc; LMDrain; LMIngest; LMMergeOk; LMHandover; LMReply; LMCheck;
   LNCall false; LNSend false; LMSelPing; LMDrain ] ++
  concat (repeat [LNCall false; LNSend false] 10) ++
  [LPUpdOk; LPPublish; LPCloseOut; LPTop].

(* the persister sits in its send holding the lock, and nothing at all can run any more: not
   the merger (it needs the lock), not a new ExecuteBatch, not Close *)
Theorem deadlock_free_mut1_refuted :
  exists s, reachable_gen Mut1 cfg_plain s /\ z_lk s = true /\ z_pp s = PSendLocked /\
            stuck Mut1 cfg_plain s /\
            step_mut1 cfg_plain s LWCall = None /\ step_mut1 cfg_plain s LCBegin = None.
Proof.
  eexists. split; [exists sched_mut1; vm_compute; reflexivity|].
  repeat split; try reflexivity. stuck_tac.
Qed.

Theorem no_block_under_lock_mut1_refuted :
  ~ (forall s, reachable_gen Mut1 cfg_plain s -> z_lk s = false).
Proof.
  intros H. destruct deadlock_free_mut1_refuted as (s & R & L & _).
  rewrite (H s R) in L. discriminate L.
Qed.

(* Mut2: `if` instead of `for` around the back-pressure wait: two woken writers both push *)
Definition sched_mut2 : list step_label :=
  [LMReply; LMCheck; LWCall; LWCloseInc; LWCall; LWCall; LMSelInc; LMDrain; LMIngest;
   LWRecheck; LWRecheck].

Theorem bounded_top_mut2_refuted :
  ~ (forall s, reachable_gen Mut2 cfg_noll s -> z_top s <= c_cap cfg_noll).
Proof.
  intros H.
  eassert (R : reachable_gen Mut2 cfg_noll _) by (exists sched_mut2; vm_compute; reflexivity).
  apply H in R. vm_compute in R. lia.
Qed.

(* Mut3: after a failed LowerLevelUpdate the persister waits on stackDirtyBaseCond; with
   dirty limits the merger waits on the outgoing channel, the top fills, a writer waits *)
Definition sched_mut3 : list step_label :=
  [LMReply; LMCheck; LPTop; LWCall; LWCloseInc; LMSelInc; LMDrain; LMIngest; LMMergeOk; LMHandover;
   LPTop; LPChk; LPUpdFail; LWCall; LWCall].

Theorem deadlock_free_mut3_refuted :
  exists s, reachable_gen Mut3 cfg_limits s /\ z_closed s = false /\ 0 < z_wwait s /\
            z_pp s = PWait /\ z_base s = true /\ stuck Mut3 cfg_limits s.
Proof.
  eexists. split; [exists sched_mut3; vm_compute; reflexivity|].
  repeat split; try reflexivity; try (vm_compute; lia). stuck_tac.
Qed.

(* Mut4: a DeferredSort writer unlocks, sorts, relocks and waits without re-checking:
   the merger's ingest and its Broadcast fall into the sort *)
Definition sched_mut4 : list step_label :=
  [LMReply; LMCheck; LWCall; LWCloseInc; LWCall; LMSelInc; LMDrain; LMIngest; LWRelock;
   LMMergeOk; LMHandover; LMReply; LMCheck].

Theorem no_lost_wakeup_mut4_refuted :
  exists s, reachable_gen Mut4 cfg_noll s /\ 0 < z_wwait s /\ z_top s < c_cap cfg_noll /\
            z_closed s = false /\ stuck Mut4 cfg_noll s.
Proof.
  eexists. split; [exists sched_mut4; vm_compute; reflexivity|].
  repeat split; try reflexivity; try (vm_compute; lia). stuck_tac.
Qed.

(* Mut5: the exiting merger does not answer the pings still queued: Close has returned,
   every goroutine is gone, the synchronous NotifyMerger waits forever *)
Definition sched_mut5 : list step_label :=
  [LMReply; LMCheck; LNCall true; LNSend true; LCBegin; LMSelStop; LMExit; LCJoinM; LCJoinP; LCFinal].

Theorem exit_answers_all_mut5_refuted :
  exists s, reachable_gen Mut5 cfg_noll s /\ z_cp s = CRet /\ z_mp s = MDone /\
            waitpong s = 1 /\ z_nans s = 0.
Proof.
  eexists. split; [exists sched_mut5; vm_compute; reflexivity|].
  repeat split; reflexivity.
Qed.

(* the statement Mut5 breaks, for the current code: the exiting merger answers every
   synchronous ping that is still listened to, queued or collected *)
Theorem exit_answers_all c s s' :
  step c s LMExit = Some s' ->
  waitpong s' = 0 /\ z_nans s' = z_nans s + waitpong s /\ z_mp s' = MDone.
Proof.
  intros H. step_cases H. unfold waitpong; zs. cbn [nsync]. repeat split; lia.
Qed.

(* the same schedules on the current code end in states that can go on / are answered *)
Example sched_mut1_current_ok :
  exists s, run cfg_plain (init cfg_plain) sched_mut1 = Some s /\ z_lk s = false /\
            step cfg_plain s LMIngest <> None.
Proof.
  eexists. split; [vm_compute; reflexivity|]. split; [reflexivity|vm_compute; discriminate].
Qed.
Example sched_mut5_current_ok :
  exists s, run cfg_noll (init cfg_noll) sched_mut5 = Some s /\ z_nans s = 1 /\ waitpong s = 0.
Proof.
  eexists. split; [vm_compute; reflexivity|]. split; reflexivity.
Qed.

(* Mut6 = the code before the repair of the notify-after-Close hang: NotifyMerger has no stop case.  Once the merger
   has run its exit handler nobody receives from pingMergerCh any more:
   (a) a synchronous NotifyMerger issued (or whose send lands) after that is never
       answered - the call hangs forever although Close has returned;
   (b) after cap(pingMergerCh) further notifications even an asynchronous NotifyMerger
       blocks forever in its send.
   So "Close releases every caller / after Close every call returns" is false for
   NotifyMerger.  (F27's repair only covers pings sent before the exit handler ran.) *)
Lemma merger_done_forever c s l s' :
  step_mut6 c s l = Some s' -> z_mp s = MDone ->
  z_mp s' = MDone /\ z_nans s' = z_nans s /\ length (z_q s) <= length (z_q s') /\
  nsync (z_q s) <= nsync (z_q s').
Proof.
  intros H D.
  assert (A : forall (q : list bool) b, length q <= length (q ++ [b]) /\ nsync q <= nsync (q ++ [b])).
  { induction q as [|x r IH]; intros b; simpl; [lia|]. destruct (IH b). lia. }
  unfold step_mut6 in H. destruct l;
  try (match goal with b : bool |- _ => destruct b end);
  try (unfold step_gen in H; discriminate H);
  step_cases H; try congruence;
  unfold writer_enter, broadcast_base, broadcast_top, room in *; zs.
  all: repeat match goal with |- context[if ?b then _ else _] => destruct b end; zs.
  all: try rewrite D in *; try discriminate.
  all: try (match goal with g : option nat |- _ => destruct g end); zs.
  all: repeat match goal with |- context[match z_pp ?x with _ => _ end] => destruct (z_pp x) end; zs.
  all: repeat split; auto; try apply A; try lia.
Qed.

Lemma merger_done_forever_run c ls : forall s s',
  run_gen Mut6 c s ls = Some s' -> z_mp s = MDone ->
  z_mp s' = MDone /\ z_nans s' = z_nans s /\ length (z_q s) <= length (z_q s') /\
  nsync (z_q s) <= nsync (z_q s').
Proof.
  intros s s' H D. revert H.
  apply (run_ind c Mut6 (fun s1 => z_mp s1 = MDone /\ z_nans s1 = z_nans s /\
                                   length (z_q s) <= length (z_q s1) /\ nsync (z_q s) <= nsync (z_q s1))).
  - intros s0 l s1 _ (D0 & A0 & L0 & N0) E.
    destruct (merger_done_forever c s0 l s1 E D0) as (D1 & A1 & L1 & N1). repeat split; auto; lia.
  - auto.
Qed.

Definition sched_notify_after_close : list step_label :=
  [LMReply; LMCheck; LCBegin; LMSelStop; LMExit; LCJoinM; LCJoinP; LCFinal;
   LNCall true; LNSend true].

Theorem close_releases_all_mut6_refuted :
  exists s, reachable_gen Mut6 cfg_noll s /\ z_cp s = CRet /\ z_mp s = MDone /\ z_pp s = PDone /\
    waitpong s = 1 /\
    (forall ls s', run_gen Mut6 cfg_noll s ls = Some s' -> 1 <= waitpong s' /\ z_nans s' = z_nans s).
Proof.
  eexists. split; [exists sched_notify_after_close; vm_compute; reflexivity|].
  split; [reflexivity|]. split; [reflexivity|]. split; [reflexivity|]. split; [reflexivity|].
  intros ls s' H.
  pose proof (merger_done_forever_run _ _ _ _ H eq_refl) as (_ & A & _ & N).
  split; [|exact A]. unfold waitpong. cbn [nsync z_q] in N. lia.
Qed.

Definition sched_notify_queue_full : list step_label :=
  [LMReply; LMCheck; LCBegin; LMSelStop; LMExit; LCJoinM; LCJoinP; LCFinal] ++
  concat (repeat [LNCall false; LNSend false] 10) ++ [LNCall false].

Theorem async_notify_after_close_blocks_mut6_refuted :
  exists s, reachable_gen Mut6 cfg_noll s /\ z_cp s = CRet /\ z_nasy s = 1 /\
    (forall ls s', run_gen Mut6 cfg_noll s ls = Some s' ->
       step_mut6 cfg_noll s' (LNSend false) = None /\ step_mut6 cfg_noll s' (LNStopSend false) = None).
Proof.
  eexists. split; [exists sched_notify_queue_full; vm_compute; reflexivity|].
  split; [reflexivity|]. split; [reflexivity|].
  intros ls s' H.
  pose proof (merger_done_forever_run _ _ _ _ H eq_refl) as (_ & _ & L & _).
  cbn [length z_q] in L.
  split; [|reflexivity].
  unfold step_mut6, step_gen, guard, room. cbn [c_qcap cfg_noll].
  assert (Q : (length (z_q s') <? 10) = false) by (apply Nat.ltb_ge; lia).
  rewrite Q. rewrite andb_false_r. reflexivity.
Qed.

(* the same two schedules on the current code: the caller's stop case is enabled *)
Example sched_mut6_current_ok :
  (exists s, run cfg_noll (init cfg_noll) sched_notify_after_close = Some s /\
             exists s', step cfg_noll s (LNStopWaitQ 0) = Some s' /\ waitpong s' = 0 /\ z_nerr s' = 1) /\
  (exists s, run cfg_noll (init cfg_noll) sched_notify_queue_full = Some s /\
             exists s', step cfg_noll s (LNStopSend false) = Some s' /\ z_nasy s' = 0 /\ z_nerr s' = 1).
Proof.
  split.
  - eexists. split; [vm_compute; reflexivity|].
    eexists. split; [vm_compute; reflexivity|]. split; reflexivity.
  - eexists. split; [vm_compute; reflexivity|].
    eexists. split; [vm_compute; reflexivity|]. split; reflexivity.
Qed.

(* Mut7 = the code before the repair of the persistence stall (683d401): the merger goes to
   sleep although its last hand-over was skipped (persister busy) and the persister has
   finished since.  The persister pings only a merger that is asleep already
   (waitDirtyIncomingCh != nil): between the skipped hand-over and the sleep the test
   fails, the persister waits, the merger goes to sleep: unpersisted data sits in
   stackDirtyMid, nothing is enabled. *)
Definition sched_persist_stall : list step_label :=
  [LMReply; LMCheck; LPTop;
   LWCall; LWCloseInc; LMSelInc; LMDrain; LMIngest; LMMergeOk; LMHandover; LPTop; LPChk;
   LMReply; LMCheck;
   LWCall; LWCloseInc; LMSelInc; LMDrain; LMIngest; LMMergeOk; LMHandover;
   LPUpdOk; LPPublish; LPCloseOut; LPTop; LMReply; LMCheck].

Theorem persist_stall_mut7_refuted :
  exists s, reachable_gen Mut7 cfg_plain s /\ z_closed s = false /\ z_mid s = true /\
            z_base s = false /\ z_mp s = MSelect /\ z_armed s = true /\ z_pp s = PWait /\
            z_q s = [] /\ stuck Mut7 cfg_plain s.
Proof.
  eexists. split; [exists sched_persist_stall; vm_compute; reflexivity|].
  repeat split; try reflexivity. stuck_tac.
Qed.

(* the same schedule on the current code: the merger does not sleep, it retries the hand-over *)
Example sched_mut7_current_ok :
  exists s, run cfg_plain (init cfg_plain) sched_persist_stall = Some s /\
            z_mp s = MDrain /\ step cfg_plain s LMDrain <> None.
Proof.
  eexists. split; [vm_compute; reflexivity|]. split; [reflexivity|vm_compute; discriminate].
Qed.

(* candidate finding (error path): after a FAILED merge (collection_merger.go 142-144,
   `continue OUTER`) the hand-over is skipped; if the persister is already waiting, the
   merger goes to sleep with the unmerged stackDirtyMid unpersisted and nothing enabled *)
Definition sched_stall_after_merge_failure : list step_label :=
  [LMReply; LMCheck; LPTop; LWCall; LWCloseInc; LMSelInc; LMDrain; LMIngest; LMMergeFail;
   LMReply; LMCheck].

Example persist_stall_after_merge_failure :
  exists s, reachable_gen MutNone cfg_plain s /\ z_closed s = false /\ z_mid s = true /\
            z_base s = false /\ z_mp s = MSelect /\ z_pp s = PWait /\ stuck MutNone cfg_plain s.
Proof.
  eexists. split; [exists sched_stall_after_merge_failure; vm_compute; reflexivity|].
  repeat split; try reflexivity. stuck_tac.
Qed.

(* run_schedule is executable: the existing sync family's labels *)
Example run_schedule_example :
  run_schedule cfg_noll
    ([LMReply; LMCheck] ++ sched_arrive ++ [LWCloseInc] ++ sched_arrive ++ [LMSelInc; LMDrain]
     ++ sched_ingest ++ [LWRecheck] ++ sched_cycleend_noll ++ sched_notifysync)
  = Some {| o_top := 1; o_blocked := 0; o_ok := 2; o_closedret := 0; o_syncret := 0; o_notiferr := 0;
            o_closed := false |}.
Proof. vm_compute. reflexivity. Qed.

Print Assumptions reachable_inv.
Print Assumptions reachable_nf_inv.
Print Assumptions bounded_top2.
Print Assumptions no_lost_wakeup.
Print Assumptions no_block_under_lock.
Print Assumptions after_close_execute_batch.
Print Assumptions close_releases_all.
Print Assumptions notify_after_close_returns.
Print Assumptions no_block_under_lock_mut1_refuted.
Print Assumptions deadlock_free_mut1_refuted.
Print Assumptions bounded_top_mut2_refuted.
Print Assumptions deadlock_free_mut3_refuted.
Print Assumptions no_lost_wakeup_mut4_refuted.
Print Assumptions exit_answers_all_mut5_refuted.
Print Assumptions exit_answers_all.
Print Assumptions close_releases_all_mut6_refuted.
Print Assumptions async_notify_after_close_blocks_mut6_refuted.
Print Assumptions persist_stall_mut7_refuted.
