(* StoreCrashFacts.v — proofs about StoreCrash.v *)
From Coq Require Import List Arith Bool Lia.
From Moss Require Import ListFacts StoreOps StoreOpsFacts StoreCrash.
Import ListNotations.

(* the crash points of a round end in the state persister_round gives *)
Theorem round_prog_correct o fo n k st :
  l_cur st = s_cur st ->
  round_end o fo n k st = fst (persister_round o fo n k st).
Proof.
  intros Hl. unfold round_end, the_prog.
  destruct (round_kind_eq_dec k RNoop) as [->|Hk]; [reflexivity|].
  assert (E : persister_round o fo n k st = persister_body o fo n k (handed n k st))
    by (destruct k; [contradiction|reflexivity ..]).
  rewrite E, body_prog; [reflexivity|exact Hk|].
  destruct (handed_same n k st) as (_ & _ & _ & -> & -> & _). exact Hl.
Qed.

Lemma last_states_of f g c m p : forall s d,
  last (states_of f g c m p s) d = exec_all f g c m p s.
Proof.
  induction p as [|x r IH]; intros s d; [reflexivity|].
  simpl exec_all. rewrite <- (IH (exec f g c m x s) d).
  change (states_of f g c m (x :: r) s)
    with (s :: torn g x s ++ states_of f g c m r (exec f g c m x s)).
  assert (G : forall (l1 l2 : list state) a, l2 <> [] -> last (a :: l1 ++ l2) d = last l2 d).
  { intros l1 l2 a Hne. revert a. induction l1 as [|b l1 IH1]; intros a.
    - simpl. destruct l2; [contradiction|reflexivity].
    - change (last (a :: (b :: l1) ++ l2) d) with (last (b :: l1 ++ l2) d). apply IH1. }
  apply G. destruct r; discriminate.
Qed.

Corollary crash_states_end o fo n k st d :
  l_cur st = s_cur st ->
  last (crash_states o fo n k st) d = fst (persister_round o fo n k st).
Proof.
  intros Hl. unfold crash_states. rewrite last_states_of. apply (round_prog_correct o fo n k st Hl).
Qed.

Lemma crash_states_start o fo n k st :
  exists r, crash_states o fo n k st = handed n k st :: r.
Proof. unfold crash_states. destruct (the_prog o fo n k (handed n k st)); simpl; eauto. Qed.

(* the relation holds at every crash point of a round *)
Lemma crash_states_rel o fo n n' k st :
  Inv n' (handed n k st) ->
  let st0 := handed n k st in
  Forall (DiskRel (has_file st0) (negb (noSync o)) st0 (served_ix st0) (nfiles st0) (next_id st0)
                  (round_content st0))
         (crash_states o fo n k st).
Proof.
  intros HI. apply Forall_impl with (2 := proj1 (round_sim o fo n n' k (handed n k st) HI)).
  intros s. apply DiskRel_weaken. intros E. apply sync_req_syncing.
  destruct (noSync o); [discriminate E|reflexivity].
Qed.

Lemma survive_in U l l' : survive true U l l' -> forall d, In d l' -> In d l.
Proof.
  induction 1 as [|d0 l l' Hu Hs IH|d0 d0' l l' Hid Hb Hs IH]; intros d Hin.
  - contradiction.
  - right. apply IH, Hin.
  - destruct Hin as [<-|Hin]; [left; symmetry; apply Hb; reflexivity|right; apply IH, Hin].
Qed.

Lemma survive_keeps U l l' :
  survive true U l l' -> forall d, In d l -> ~ In (d_id d) U -> In d l'.
Proof.
  induction 1 as [|d0 l l' Hu Hs IH|d0 d0' l l' Hid Hb Hs IH]; intros d Hin Hn.
  - contradiction.
  - destruct Hin as [<-|Hin]; [contradiction|apply IH; auto].
  - destruct Hin as [<-|Hin]; [left; apply Hb; reflexivity|right; apply IH; auto].
Qed.

Lemma survive_head U l l' :
  survive true U l l' -> desc l ->
  forall d' r d, l' = d' :: r -> In d l -> ~ In (d_id d) U -> d_id d <= d_id d'.
Proof.
  induction 1 as [|d0 l l' Hu Hs IH|d0 d0' l l' Hid Hb Hs IH]; intros Hd d' r d El Hin Hn.
  - contradiction.
  - destruct Hin as [<-|Hin]; [contradiction|]. destruct Hd as (_ & Hd). eapply IH; eauto.
  - injection El as <- <-. rewrite (Hb eq_refl). eapply desc_head_max; eauto.
Qed.

Lemma img_foot_in ns x y d : img_file true ns x y -> In d (f_footers y) -> In d (f_footers x).
Proof.
  unfold img_file. destruct ns.
  - intros (_ & _ & ->). auto.
  - intros (_ & _ & Hs & _). apply (survive_in _ _ _ Hs).
Qed.

Lemma img_exists ns x y : img_file true ns x y -> f_exists y = true -> f_exists x = true.
Proof.
  unfold img_file. destruct ns.
  - intros (-> & _). auto.
  - intros (H & _). exact H.
Qed.

Lemma img_keeps ns x y d :
  img_file true ns x y -> f_exists x = true -> f_header x = true -> In d (f_footers x) ->
  (ns = false -> ~ In (d_id d) (f_unsynced x)) ->
  usable y = true /\ In d (f_footers y).
Proof.
  unfold img_file, usable. destruct ns.
  - intros (-> & -> & ->) -> -> Hin _. split; [|exact Hin].
    destruct (f_footers x); [contradiction|reflexivity].
  - intros (_ & _ & Hs & Hb) Hex Hhd Hin Hn.
    pose proof (survive_keeps _ _ _ Hs d Hin (Hn eq_refl)) as Hy.
    assert (Hne : f_footers y <> []) by (intros E; rewrite E in Hy; contradiction).
    destruct (Hb eq_refl Hex Hne) as (-> & ->). split; [|exact Hy].
    destruct (f_footers y); [contradiction|reflexivity].
Qed.

Lemma img_head ns x y d' r d :
  img_file true ns x y -> desc (f_footers x) -> f_footers y = d' :: r -> In d (f_footers x) ->
  (ns = false -> ~ In (d_id d) (f_unsynced x)) -> d_id d <= d_id d'.
Proof.
  unfold img_file. destruct ns.
  - intros (_ & _ & ->) Hd E Hin _. rewrite E in *. eapply desc_head_max; eauto.
  - intros (_ & _ & Hs & _) Hd E Hin Hn. eapply survive_head; eauto.
Qed.

Lemma desc_inj l : desc l -> forall a b, In a l -> In b l -> d_id a = d_id b -> a = b.
Proof.
  induction l as [|x l IH]; intros Hd a b Ha Hb E; [contradiction|].
  destruct Hd as (Hlt & Hd).
  destruct Ha as [<-|Ha], Hb as [<-|Hb]; auto.
  - specialize (Hlt _ Hb). lia.
  - specialize (Hlt _ Ha). lia.
Qed.

(* the second invariant: what Inv does not say about old footers and about f_unsynced *)
Record Inv2 (o : opts) (st : state) : Prop := {
  (* while nothing is served from a file, every complete footer anywhere was
     written by a round that reported an error *)
  j_orph : o_file (cur st) = None ->
           forall i d, In d (f_footers (files st i)) -> s_cur st < d_id d;
  (* when rounds sync, only such footers can be un-synced in the served file *)
  j_sync : noSync o = false -> forall f, o_file (cur st) = Some f ->
           forall x, In x (f_unsynced (files st f)) -> s_cur st < x
}.

Lemma Inv2_init o : Inv2 o init.
Proof. constructor; simpl; intros; try contradiction; discriminate. Qed.

Lemma prefix_refl a : prefix a a.
Proof. exists []. rewrite app_nil_r. reflexivity. Qed.
Lemma prefix_app a b : prefix a (a ++ b).
Proof. exists b. reflexivity. Qed.
Lemma prefix_trans a b c : prefix a b -> prefix b c -> prefix a c.
Proof. intros (x & ->) (y & ->). exists (x ++ y). rewrite app_assoc. reflexivity. Qed.

Lemma DiskRel_foot h sy st0 f g m P s i d :
  DiskRel h sy st0 f g m P s -> In d (f_footers (files s i)) ->
  d = nidP m P \/ In d (f_footers (files st0 i)).
Proof.
  intros (Rother & _ & Rffoot & _ & _ & _ & Rgfoot & _).
  destruct (Nat.eq_dec i g) as [->|Hg].
  { destruct Rgfoot as [E|E]; rewrite E; [intros []|intros [<-|[]]; left; reflexivity]. }
  destruct (Nat.eq_dec i f) as [->|Hf]; [|rewrite (Rother i Hf Hg); auto].
  destruct Rffoot as [E|E]; rewrite E; [auto|]. intros [<-|H]; auto.
Qed.

(* s_cur st0 < d_id d: a footer left behind by a failed round *)
Lemma old_footer_ok n st0 i d :
  Inv n st0 -> In d (f_footers (files st0 i)) -> s_cur st0 <= d_id d ->
  o_file (cur st0) = Some i \/ s_cur st0 < d_id d ->
  prefix (o_content (cur st0)) (d_content d) /\ prefix (d_content d) (pending st0).
Proof.
  intros HI Hin Hle Hc. destruct (Nat.eq_dec (d_id d) (s_cur st0)) as [He|Hne].
  - destruct Hc as [Hf|Hlt]; [|lia].
    destruct (served_footer_alive n st0 HI i Hf) as (_ & _ & _ & _ & Hs).
    rewrite (desc_inj _ (i_desc _ _ HI i) d _ Hin Hs He). simpl.
    split; [apply prefix_refl|apply prefix_app].
  - destruct (i_orph _ _ HI i d Hin) as (-> & _); [lia|].
    split; [apply prefix_app|apply prefix_refl].
Qed.

(* the core: at a crash point related to the round's start state by DiskRel,
   OpenStore on any legal image is fine *)
Lemma crash_good o n st0 s img :
  Inv n st0 -> Inv2 o st0 -> Newest st0 ->
  DiskRel (has_file st0) (negb (noSync o)) st0 (served_ix st0) (nfiles st0) (next_id st0)
          (round_content st0) s ->
  crash_image true o s img ->
  crash_ok (o_file (cur st0) = None) (o_content (cur st0)) (pending st0) (reopen_image s img).
Proof.
  intros HI HJ HN HR Himg. change (round_content st0) with (pending st0) in HR.
  unfold has_file, served_ix in HR. fold (cur st0) in HR.
  set (g := nfiles st0) in *. set (m := next_id st0) in *. set (P := pending st0) in *.
  set (ns := noSync o) in *.
  assert (HnidP : crash_ok (o_file (cur st0) = None) (o_content (cur st0)) P (ReopenServes 0 (nidP m P)))
    by (simpl; split; [apply prefix_app|apply prefix_refl]).
  pose proof (reopen_char (set_files s img)) as HC. unfold reopen_image.
  (* the footer OpenStore serves was written, to a file that exists *)
  assert (Hfound : forall t d r, f_footers (img t) = d :: r -> usable (img t) = true ->
            In d (f_footers (files s t)) /\ f_exists (files s t) = true).
  { intros t d r Er Hu. split.
    - apply (img_foot_in ns _ (img t) d (Himg t)). rewrite Er. left. reflexivity.
    - apply (img_exists ns _ (img t) (Himg t)). unfold usable in Hu.
      destruct (f_exists (img t)); [reflexivity|discriminate]. }
  destruct (o_file (cur st0)) as [f|] eqn:Hf.
  - (* something is served from file f *)
    pose proof HR as (Rother & Rnf & Rffoot & Rfuns & Rfhdr & Rfex & Rgfoot & Rgnf & Rghdr & Rone).
    destruct (served_footer_alive n st0 HI f Hf) as (Hex & Hnd & Hhd & Hrf & Hin).
    pose proof (exists_lt_nfiles n st0 f HI Hex) as Hflt. fold g in Hflt.
    set (sf := {| d_id := s_cur st0; d_content := o_content (cur st0) |}) in *.
    assert (Hdescf : desc (f_footers (files s f))).
    { destruct Rffoot as [->| ->]; [apply (i_desc _ _ HI)|].
      apply desc_cons_lt; [apply (i_desc _ _ HI)|]. simpl. intros e He. apply (i_dids _ _ HI f e He). }
    assert (Hsfin : In sf (f_footers (files s f))).
    { destruct Rffoot as [->| ->]; [exact Hin|right; exact Hin]. }
    assert (Hsfsync : ns = false -> ~ In (d_id sf) (f_unsynced (files s f))).
    { intros Ens Hu. apply Rfuns in Hu. simpl in Hu. destruct Hu as [Hu|Hu].
      - pose proof (i_curlt _ _ HI). subst m. lia.
      - pose proof (j_sync _ _ HJ Ens f Hf _ Hu). lia. }
    (* one of f, g is usable in the image *)
    assert (Huse : (f < nfiles s /\ usable (img f) = true) \/ (nfiles s = S g /\ usable (img g) = true)).
    { destruct (Rone eq_refl) as [Hfe|(A & B & C & D & E)].
      - left. split; [destruct Rnf as [->| ->]; lia|].
        apply (img_keeps ns _ _ sf (Himg f)); auto. rewrite Rfhdr. exact Hhd.
      - right. split; [exact A|].
        apply (img_keeps ns _ _ (nidP m P) (Himg g)); auto.
        + rewrite D. left. reflexivity.
        + intros Ens. rewrite E; [intros []|]. rewrite Ens. reflexivity. }
    destruct (reopen (set_files s img)) as [| |t d]; simpl in HC.
    1, 2: exfalso; destruct Huse as [(A & B)|(A & B)]; rewrite HC in B; try discriminate; lia.
    destruct HC as (Ht & Hu & (r & Er) & Hnew). destruct (Hfound t d r Er Hu) as (Hdin & Htex).
    destruct (DiskRel_foot _ _ _ _ _ _ _ _ t d HR Hdin) as [->|Hd0]; [exact HnidP|].
    assert (t = f) as ->.
    { destruct (Nat.eq_dec t f) as [E|Htf]; [exact E|exfalso].
      assert (Htg : t <> g) by (intros ->; rewrite (i_fresh _ _ HI g (le_n _)) in Hd0; destruct Hd0).
      rewrite (Rother t Htf Htg) in Htex.
      pose proof (HN t Htex) as Hle. rewrite Hf in Hle.
      destruct Huse as [(A & B)|(A & B)]; (rewrite Hnew in B; [discriminate|simpl; lia..]). }
    apply (old_footer_ok n st0 f d HI Hd0); [|left; exact Hf].
    apply (img_head ns _ _ d r sf (Himg f)); auto.
  - (* nothing is served from a file yet *)
    destruct (reopen (set_files s img)) as [| |t d]; simpl; auto.
    simpl in HC. destruct HC as (Ht & Hu & (r & Er) & Hnew). destruct (Hfound t d r Er Hu) as (Hdin & _).
    destruct (DiskRel_foot _ _ _ _ _ _ _ _ t d HR Hdin) as [->|Hd0]; [exact HnidP|].
    pose proof (j_orph _ _ HJ Hf t d Hd0) as Hlt.
    apply (old_footer_ok n st0 t d HI Hd0); [lia|right; exact Hlt].
Qed.

Lemma exec_all_in f g c m p : forall s, In (exec_all f g c m p s) (states_of f g c m p s).
Proof.
  induction p as [|x r IH]; intros s; [left; reflexivity|]. right. apply in_or_app. right. apply IH.
Qed.

Lemma handed_nfiles n k st : nfiles (handed n k st) = nfiles st.
Proof. apply handed_same. Qed.

Lemma handed_Inv2 o n k st : Inv2 o st -> Inv2 o (handed n k st).
Proof.
  intros [A B]. destruct (handed_same n k st) as (Ef & _ & _ & Es & _).
  constructor; rewrite handed_cur, Es, Ef; auto.
Qed.

Lemma handed_Newest n k st : Newest st -> Newest (handed n k st).
Proof. intros H i. rewrite handed_cur, (proj1 (handed_same n k st)). apply H. Qed.

Lemma final_rel o fo n k st :
  Inv n st ->
  let st0 := handed n k st in
  DiskRel (has_file st0) (negb (noSync o)) st0 (served_ix st0) (nfiles st0) (next_id st0)
          (round_content st0) (fst (persister_round o fo n k st)).
Proof.
  intros HI st0. rewrite <- (round_prog_correct o fo n k st (i_same _ _ HI)).
  apply (proj1 (Forall_forall _ _) (crash_states_rel o fo n (S n) k st (handed_Inv n k st HI))).
  apply exec_all_in.
Qed.

Lemma Inv2_round o fo n k st :
  Inv n st -> Inv2 o st -> Inv2 o (fst (persister_round o fo n k st)).
Proof.
  intros HI HJ.
  pose proof (final_rel o fo n k st HI) as HR. cbv zeta in HR.
  pose proof (handed_Inv2 o n k st HJ) as HJ0. pose proof (handed_Inv n k st HI) as HI0.
  pose proof (i_curlt _ _ HI0) as Hclt.
  destruct (round_class o fo n k st HI) as [(_ & _ & _ & HE)|(_ & _ & _ & HO)].
  - constructor; rewrite (ErrStep_cur _ _ _ HE), (e_sc _ _ _ HE).
    + intros Hnone i d Hin.
      destruct (ErrStep_foot _ _ _ i d HE Hin) as [H|(-> & _)]; [|exact Hclt].
      apply (j_orph _ _ HJ0 Hnone i d H).
    + intros Hns f Hf x Hx.
      assert (Ef : served_ix (handed n k st) = f).
      { unfold served_ix. unfold cur in Hf. rewrite Hf. reflexivity. }
      rewrite Ef in HR. destruct HR as (_ & _ & _ & Rfuns & _). apply Rfuns in Hx.
      destruct Hx as [<-|Hx]; [exact Hclt|]. apply (j_sync _ _ HJ0 Hns f Hf x Hx).
  - destruct (OkStep_served _ _ _ _ HO) as (t & Ecur & _ & _ & _ & _ & Hsy & _).
    constructor; rewrite Ecur; simpl.
    + discriminate.
    + intros Hns f Hf x Hx. injection Hf as <-.
      rewrite Hsy in Hx; [contradiction|]. apply sync_req_syncing, Hns.
Qed.

Lemma Inv2_run o fo ks : forall n st,
  Inv n st -> Inv2 o st -> Inv2 o (fst (run o fo n ks st)).
Proof.
  intros n st HI. apply (run_preserves o fo (fun _ => True) (Inv2 o)); auto.
  intros n' k s HI' _. apply Inv2_round, HI'.
Qed.

Corollary Inv2_reachable o fo ks : Inv2 o (reachable o fo ks).
Proof. apply (Inv2_run o fo ks 0 init Inv_init (Inv2_init o)). Qed.

Theorem crash_round_ok o fo n k st s img :
  Inv n st -> Inv2 o st -> Newest st ->
  In s (crash_states o fo n k st) -> crash_image true o s img ->
  crash_ok (o_file (cur st) = None) (o_content (cur st)) (pending (handed n k st))
           (reopen_image s img).
Proof.
  intros HI HJ HN Hin Himg.
  pose proof (crash_states_rel o fo n (S n) k st (handed_Inv n k st HI)) as HF. cbv zeta in HF.
  rewrite Forall_forall in HF. specialize (HF s Hin).
  rewrite <- (handed_cur n k st).
  apply (crash_good o (S n) (handed n k st) s img); auto.
  - apply handed_Inv; auto.
  - apply handed_Inv2; auto.
  - apply handed_Newest; auto.
Qed.

(* Crash point (r, j) of any run in which the clean-up Stat of
   removeFileOnClose did not fail in an EARLIER attempt; any legal image,
   power failure (noSync o = false) or process kill (noSync o = true).
   OpenStore serves a footer whose content d satisfies
        served-before-attempt-r  <=  d  <=  everything handed to the persister,
   in the prefix order on lists of round ids; it can only find the directory
   empty or unopenable while no round has ever committed. *)
Theorem crash_prefix_consistent o fo ks r j s img :
  (forall i, i < r -> rm_stat_ok fo i) ->
  crash_state o fo ks r j = Some s ->
  crash_image true o s img ->
  let st := reachable o fo (firstn r ks) in
  crash_ok (o_file (cur st) = None) (o_content (cur st))
           (pending (handed r (nth r ks RNoop) st)) (reopen_image s img).
Proof.
  intros Hrm Hcs Himg st. unfold crash_state in Hcs. fold (reachable o fo (firstn r ks)) in Hcs. fold st in Hcs.
  apply nth_error_In in Hcs.
  pose proof (firstn_le_length r ks) as Hlen.
  apply (crash_round_ok o fo r (nth r ks RNoop) st s img); auto.
  - apply Inv_mono with (length (firstn r ks)); [exact Hlen|apply Inv_reachable].
  - apply Inv2_reachable.
  - apply Newest_run; [apply Inv_init| |apply Newest_init].
    intros i _ Hi. apply Hrm. simpl in Hi. lia.
Qed.

(* the content served only grows, and a served file is never given up *)
Lemma cur_mono_round o fo n k st :
  Inv n st ->
  let st' := fst (persister_round o fo n k st) in
  prefix (o_content (cur st)) (o_content (cur st')) /\
  (o_file (cur st) <> None -> o_file (cur st') <> None).
Proof.
  intros HI st'. subst st'. rewrite <- (handed_cur n k st).
  destruct (round_class o fo n k st HI) as [(_ & _ & _ & HE)|(_ & _ & _ & HO)].
  - rewrite (ErrStep_cur _ _ _ HE). split; [apply prefix_refl|auto].
  - destruct (OkStep_served _ _ _ _ HO) as (t & -> & _). simpl.
    split; [apply prefix_app|discriminate].
Qed.

Lemma cur_mono_run o fo ks : forall n st,
  Inv n st ->
  let st' := fst (run o fo n ks st) in
  prefix (o_content (cur st)) (o_content (cur st')) /\
  (o_file (cur st) <> None -> o_file (cur st') <> None).
Proof.
  intros n st HI.
  apply (run_preserves o fo (fun _ => True)
           (fun s => prefix (o_content (cur st)) (o_content (cur s)) /\
                     (o_file (cur st) <> None -> o_file (cur s) <> None))); auto.
  - intros n' k s HI' _ (A & B). destruct (cur_mono_round o fo n' k s HI') as (C & D).
    split; [eapply prefix_trans; eauto|auto].
  - split; [apply prefix_refl|auto].
Qed.

Lemma prefix_incl a b : prefix a b -> incl a b.
Proof. intros (r & ->). apply incl_appl, incl_refl. Qed.

(* A round that reported success before the crash point is never lost.
   Attempt number length ks1 (kind k) reports success; the run goes on with
   ks2; the crash happens during the attempt after those (kind kc; RNoop for an
   idle persister) or at its very start (j = 0: right after ks2).  With
   noSync o = false every round syncs (sync_req_syncing) and the image is a
   power-failure image; with noSync o = true the image is a process-kill image
   and "synced" is dropped. *)
Theorem committed_round_survives o fo ks1 k ks2 kc j s img :
  let ks := ks1 ++ k :: ks2 in
  let r := length ks in
  (forall i, i < r -> rm_stat_ok fo i) ->
  k <> RNoop ->
  let oc := snd (persister_round o fo (length ks1) k (reachable o fo ks1)) in
  ro_error oc = false ->
  crash_state o fo (ks ++ [kc]) r j = Some s ->
  crash_image true o s img ->
  exists t d,
    reopen_image s img = ReopenServes t d /\
    prefix (o_content (cur (reachable o fo (ks1 ++ [k])))) (d_content d) /\
    incl (ro_handed oc) (d_content d) /\
    prefix (d_content d) (pending (handed r kc (reachable o fo ks))).
Proof.
  intros ks r Hrm Hk oc Hok Hcs Himg.
  pose proof (crash_prefix_consistent o fo (ks ++ [kc]) r j s img Hrm Hcs Himg) as H.
  cbv zeta in H. unfold r in H. rewrite firstn_length_app, nth_middle in H. fold r in H.
  (* the successful round *)
  pose proof (Inv_reachable o fo ks1) as HI1.
  destruct (success_is_served o fo (length ks1) k (reachable o fo ks1) HI1 Hk Hok)
    as (_ & _ & _ & _ & _ & _ & Hc & (t1 & Ht1 & _)).
  rewrite <- reachable_snoc in Hc, Ht1. fold oc in Hc.
  (* the rest of the run *)
  assert (Eks : reachable o fo ks = fst (run o fo (length (ks1 ++ [k])) ks2 (reachable o fo (ks1 ++ [k])))).
  { unfold ks, reachable. replace (ks1 ++ k :: ks2) with ((ks1 ++ [k]) ++ ks2) by (rewrite <- app_assoc; reflexivity).
    exact (run_app o fo (ks1 ++ [k]) ks2 0 init). }
  pose proof (Inv_reachable o fo (ks1 ++ [k])) as HI2.
  destruct (cur_mono_run o fo ks2 _ _ HI2) as (Hpre & Hfile). rewrite <- Eks in Hpre, Hfile.
  assert (Hsome : o_file (cur (reachable o fo ks)) <> None) by (apply Hfile; rewrite Ht1; discriminate).
  destruct (reopen_image s img) as [| |t d]; simpl in H; try contradiction.
  destruct H as (A & B). exists t, d. split; [reflexivity|].
  assert (Hp : prefix (o_content (cur (reachable o fo (ks1 ++ [k])))) (d_content d))
    by (eapply prefix_trans; eauto).
  split; [exact Hp|]. split; [|exact B].
  intros x Hx. apply (prefix_incl _ _ Hp). rewrite Hc. apply in_or_app. right. exact Hx.
Qed.

Lemma process_kill_image o s : noSync o = true -> crash_image true o s (files s).
Proof. intros H i. unfold img_file. rewrite H. auto. Qed.

Corollary process_kill_prefix_consistent o fo ks r j s :
  noSync o = true ->
  (forall i, i < r -> rm_stat_ok fo i) ->
  crash_state o fo ks r j = Some s ->
  let st := reachable o fo (firstn r ks) in
  crash_ok (o_file (cur st) = None) (o_content (cur st))
           (pending (handed r (nth r ks RNoop) st)) (reopen s).
Proof.
  intros Hns Hrm Hcs.
  apply (crash_prefix_consistent o fo ks r j s (files s) Hrm Hcs (process_kill_image o s Hns)).
Qed.

Ltac survive_tac :=
  solve [ repeat first
    [ apply sv_nil
    | apply sv_kept; [reflexivity | (intros; first [reflexivity | discriminate]) | ]
    | apply sv_lost; [simpl; auto | ] ] ].

Ltac img_tac :=
  unfold img_file; cbn [noSync opts0 opts_nosync];
  repeat match goal with
  | |- _ /\ _ => split
  | |- _ -> _ => intro
  end;
  try solve [ reflexivity | assumption | discriminate | congruence | survive_tac
            | (exfalso; auto) ].

Definition crash_at (o : opts) (fo : oracle) (ks : list round_kind) (r j : nat) (Q : state -> Prop) : Prop :=
  match crash_state o fo ks r j with Some s => Q s | None => False end.

Definition header_only_dir (i : nat) : file :=
  match i with 0 => fresh_file | _ => no_file end.

(* F5 / F5b.  The first round has created data-0000000000000000.moss and
   written its header page (startFileLOCKED, store.go:287-307); the crash comes
   before the first footer is complete.  Whether rounds sync (power failure,
   the header page happens to be on disk) or not (process kill): the directory
   holds a data file without footer and OpenStore answers "could not
   open/parse any file" (store.go:653).  No I/O failure is involved.  So the
   alternative `never committed` of crash_ok cannot be dropped. *)
Theorem crash_before_first_commit_refuted :
  forall o, o = opts0 \/ o = opts_nosync ->
  exists ks fo r j img,
    (forall i, rm_stat_ok fo i) /\
    o_file (cur (reachable o fo (firstn r ks))) = None /\
    crash_at o fo ks r j (fun s =>
      crash_image true o s img /\ reopen_image s img = ReopenError).
Proof.
  intros o Ho.
  exists [RAppend], quiet, 0, 3, header_only_dir.
  split; [intros i; reflexivity|]. split; [reflexivity|].
  assert (E : exists s, crash_state o quiet [RAppend] 0 3 = Some s /\
                        (forall i, files s i = header_only_dir i) /\ nfiles s = 1).
  { destruct Ho as [-> | ->];
      (eexists; split; [vm_compute; reflexivity|]; split; [|reflexivity]; intros [|i]; reflexivity). }
  unfold crash_at. destruct E as (s & -> & Ef & En). split.
  - intros i. rewrite Ef. destruct Ho as [-> | ->]; destruct i; img_tac.
  - unfold reopen_image, reopen, dir_of. simpl. rewrite En. reflexivity.
Qed.

(* F30.  crash_prefix_consistent asks that the Stat inside removeFileOnClose
   (store.go:328) did not fail in an earlier attempt.  Without that: attempt 1,
   a full compaction into file 1, writes its footer completely, the Sync after
   it fails (store_footer.go:39), and so does the Stat of the clean-up
   (store_compact.go:318-323): file 1 stays, with a complete footer {0,1}.
   Attempts 2 and 3 append to file 0, sync, and report success: {0,1,3} is
   served and durable.  Crash (here: with the persister idle, nothing in
   flight); in the image file 1's footer has survived; OpenStore takes the
   newest file with a footer - file 1 - and serves {0,1}: round 3 is lost. *)
Definition f30_image (i : nat) : file :=
  match i with
  | 0 => {| f_exists := true; f_refs := 0; f_doomed := false; f_header := true;
            f_footers := [{| d_id := 4; d_content := [0; 1; 3] |};
                          {| d_id := 3; d_content := [0; 1] |};
                          {| d_id := 1; d_content := [0] |}];
            f_unsynced := [] |}
  | 1 => {| f_exists := true; f_refs := 0; f_doomed := false; f_header := true;
            f_footers := [{| d_id := 2; d_content := [0; 1] |}];
            f_unsynced := [] |}
  | _ => no_file
  end.

Theorem crash_after_failed_cleanup_refuted :
  exists o ks fo r j img,
    (forall i, i <> 1 -> rm_stat_ok fo i) /\
    map ro_error (snd (run o fo 0 ks init)) = [false; true; false; false] /\
    o_content (cur (reachable o fo (firstn r ks))) = [0; 1; 3] /\
    crash_at o fo ks r j (fun s =>
      crash_image true o s img /\
      reopen_image s img = ReopenServes 1 {| d_id := 2; d_content := [0; 1] |}) /\
    ~ prefix [0; 1; 3] [0; 1].
Proof.
  exists opts0, witness_loss_rounds, witness_loss_oracle, 4, 0, f30_image.
  split.
  { intros i Hi. unfold rm_stat_ok, fl, witness_loss_oracle, fail_at. simpl.
    destruct i as [|[|i]]; try reflexivity. contradiction. }
  split; [vm_compute; reflexivity|]. split; [vm_compute; reflexivity|].
  split.
  - unfold crash_at.
    assert (E : exists s, crash_state opts0 witness_loss_oracle witness_loss_rounds 4 0 = Some s /\
                          nfiles s = 2 /\
                          (forall i, f_exists (files s i) = f_exists (f30_image i) /\
                                     f_header (files s i) = f_header (f30_image i) /\
                                     f_footers (files s i) = f_footers (f30_image i) /\
                                     incl (f_unsynced (files s i)) [2])).
    { eexists. split; [vm_compute; reflexivity|]. split; [reflexivity|].
      intros [|[|i]]; vm_compute; repeat split; auto; intros x []. }
    destruct E as (s & -> & En & Ef). split.
    + intros i. destruct (Ef i) as (E1 & E2 & E3 & E4).
      unfold img_file. cbn [noSync opts0]. rewrite E1, E2, E3.
      destruct i as [|[|i]]; simpl.
      * repeat split; auto.
        repeat (apply sv_kept; [reflexivity|reflexivity|]). apply sv_nil.
      * repeat split; auto.
        repeat (apply sv_kept; [reflexivity|reflexivity|]). apply sv_nil.
      * repeat split; auto. apply sv_nil.
    + unfold reopen_image, reopen, dir_of. simpl. rewrite En. reflexivity.
  - intros (x & E). discriminate E.
Qed.

(* the barrier.  With barrier_holds = false - the Sync BEFORE the footer write
   dropped (store_footer.go:26-31) - a footer can be on disk without the data
   it refers to; it then reads as anything.  One quiet round, crash with the
   persister idle: OpenStore serves what is not a prefix of anything. *)
Definition garbage_image (i : nat) : file :=
  match i with
  | 0 => {| f_exists := true; f_refs := 0; f_doomed := false; f_header := true;
            f_footers := [{| d_id := 1; d_content := [7] |}]; f_unsynced := [] |}
  | _ => no_file
  end.

Theorem crash_without_barrier_refuted :
  exists o ks fo r j img,
    (forall i, rm_stat_ok fo i) /\
    pending (reachable o fo (firstn r ks)) = [0] /\
    crash_at o fo ks r j (fun s =>
      crash_image false o s img /\
      reopen_image s img = ReopenServes 0 {| d_id := 1; d_content := [7] |}) /\
    ~ prefix [7] [0].
Proof.
  exists opts0, [RAppend], quiet, 1, 0, garbage_image.
  split; [intros i; reflexivity|]. split; [vm_compute; reflexivity|].
  split.
  - unfold crash_at.
    assert (E : exists s, crash_state opts0 quiet [RAppend] 1 0 = Some s /\ nfiles s = 1 /\
                (forall i, f_exists (files s i) = f_exists (garbage_image i) /\
                           f_header (files s i) = f_header (garbage_image i) /\
                           f_footers (files s i) = match i with 0 => [{| d_id := 1; d_content := [0] |}] | _ => [] end)).
    { eexists. split; [vm_compute; reflexivity|]. split; [reflexivity|].
      intros [|i]; vm_compute; repeat split; auto. }
    destruct E as (s & -> & En & Ef). split.
    + intros i. destruct (Ef i) as (E1 & E2 & E3).
      unfold img_file. cbn [noSync opts0]. rewrite E1, E2, E3.
      destruct i as [|i]; simpl.
      * repeat split; auto; try discriminate.
        apply sv_kept; [reflexivity|discriminate|apply sv_nil].
      * repeat split; auto; try discriminate. apply sv_nil.
    + unfold reopen_image, reopen, dir_of. simpl. rewrite En. reflexivity.
  - intros (x & E). discriminate E.
Qed.

(* The file-system assumption "unlinks are ordered (durable once issued)".
   moss never syncs the DIRECTORY.  On a file system where an unlink that was
   not followed by a directory sync can be undone by a power failure, ONE
   failure suffices for the loss of F30: attempt 1, a full compaction into
   file 1, persists and SYNCS its footer, then mmap fails (store_footer.go:316,
   exit 3 of compact, store_compact.go:325-331); removeFileOnClose(frefCompact)
   works and the deferred DecRef unlinks file 1.  Attempts 2 and 3 append to
   file 0 and report success.  Power failure; the unlink is undone: file 1 is
   back with its durable footer {0,1}, OpenStore serves it and deletes file 0. *)
Definition crash_image_undo (s : state) (img : nat -> file) : Prop :=
  forall i, img_file_undo (files s i) (img i).

Theorem crash_with_undone_unlink_refuted :
  exists o ks fo r j img,
    (forall i, rm_stat_ok fo i /\ rm_old_stat_ok fo i) /\
    map ro_error (snd (run o fo 0 ks init)) = [false; true; false; false] /\
    o_content (cur (reachable o fo (firstn r ks))) = [0; 1; 3] /\
    dir_of (reachable o fo (firstn r ks)) = [0] /\
    crash_at o fo ks r j (fun s =>
      crash_image_undo s img /\
      reopen_image s img = ReopenServes 1 {| d_id := 2; d_content := [0; 1] |}).
Proof.
  exists opts0, witness_loss_rounds, (fail_at [(1, SMmap)]), 4, 0, f30_image.
  split.
  { intros i. split; apply fail_at_quiet; reflexivity. }
  split; [vm_compute; reflexivity|]. split; [vm_compute; reflexivity|].
  split; [vm_compute; reflexivity|].
  unfold crash_at.
  assert (E : exists s, crash_state opts0 (fail_at [(1, SMmap)]) witness_loss_rounds 4 0 = Some s /\
                        nfiles s = 2 /\
                        (forall i, f_header (f30_image i) = f_header (files s i) /\
                                   f_footers (f30_image i) = f_footers (files s i) /\
                                   f_unsynced (files s i) = [] /\
                                   (f_exists (files s i) = true -> f_exists (f30_image i) = true))).
  { eexists. split; [vm_compute; reflexivity|]. split; [reflexivity|].
    intros [|[|i]]; vm_compute; repeat split; auto. }
  destruct E as (s & -> & En & Ef). split.
  - intros i. exact (Ef i).
  - unfold reopen_image, reopen, dir_of. simpl. rewrite En. reflexivity.
Qed.

(* a crash point INSIDE a full compaction, rounds syncing: the footer of the
   new file 1 is written but not yet synced.  Two legal images - the footer
   lost (file 1 is then possibly missing), the footer kept - and what
   crash_prefix_consistent promises for each *)
Definition img_lost (i : nat) : file :=
  match i with
  | 0 => {| f_exists := true; f_refs := 0; f_doomed := false; f_header := true;
            f_footers := [{| d_id := 1; d_content := [0] |}]; f_unsynced := [] |}
  | _ => no_file
  end.
Definition img_kept (i : nat) : file :=
  match i with
  | 1 => {| f_exists := true; f_refs := 0; f_doomed := false; f_header := true;
            f_footers := [{| d_id := 2; d_content := [0; 1] |}]; f_unsynced := [] |}
  | _ => img_lost i
  end.

Example crash_inside_full_compaction :
  crash_at opts0 quiet [RAppend; RFull] 1 6 (fun s =>
    f_unsynced (files s 1) = [2] /\
    crash_image true opts0 s img_lost /\ crash_image true opts0 s img_kept /\
    reopen_image s img_lost = ReopenServes 0 {| d_id := 1; d_content := [0] |} /\
    reopen_image s img_kept = ReopenServes 1 {| d_id := 2; d_content := [0; 1] |}).
Proof.
  unfold crash_at.
  assert (E : exists s, crash_state opts0 quiet [RAppend; RFull] 1 6 = Some s /\ nfiles s = 2 /\
              (forall i, files s i =
                 match i with
                 | 0 => {| f_exists := true; f_refs := 1; f_doomed := false; f_header := true;
                           f_footers := [{| d_id := 1; d_content := [0] |}]; f_unsynced := [] |}
                 | 1 => {| f_exists := true; f_refs := 1; f_doomed := false; f_header := true;
                           f_footers := [{| d_id := 2; d_content := [0; 1] |}]; f_unsynced := [2] |}
                 | _ => no_file
                 end)).
  { eexists. split; [vm_compute; reflexivity|]. split; [reflexivity|].
    intros [|[|i]]; reflexivity. }
  destruct E as (s & -> & En & Ef).
  split; [rewrite Ef; reflexivity|].
  split; [intros i; rewrite Ef; destruct i as [|[|i]]; img_tac|].
  split; [intros i; rewrite Ef; destruct i as [|[|i]]; img_tac|].
  split; unfold reopen_image, reopen, dir_of; simpl; rewrite En; reflexivity.
Qed.

(* the hypotheses of the theorems hold for runs with real failures, and the
   conclusion then has content: after a failed Sync behind a complete footer
   the un-synced footer may or may not survive; both contents are prefixes *)
Example theorem_applies_after_failures :
  let fo := fail_at [(1, SSync2); (2, SWData)] in
  let ks := [RAppend; RAppend; RFull; RAppend] in
  (forall i, rm_stat_ok fo i) /\
  map ro_error (snd (run opts0 fo 0 ks init)) = [false; true; true; false] /\
  (forall j s img, crash_state opts0 fo ks 4 j = Some s -> crash_image true opts0 s img ->
     exists t d, reopen_image s img = ReopenServes t d /\
                 prefix [0; 1] (d_content d) /\ prefix (d_content d) [0; 1]).
Proof.
  cbv zeta. split.
  { intros i. apply fail_at_quiet. reflexivity. }
  split; [vm_compute; reflexivity|].
  intros j s img Hcs Himg.
  pose proof (crash_prefix_consistent opts0 (fail_at [(1, SSync2); (2, SWData)])
                [RAppend; RAppend; RFull; RAppend] 4 j s img) as H.
  cbv zeta in H.
  assert (Hrm : forall i, i < 4 -> rm_stat_ok (fail_at [(1, SSync2); (2, SWData)]) i).
  { intros i _. apply fail_at_quiet. reflexivity. }
  specialize (H Hrm Hcs Himg).
  assert (E1 : o_content (cur (reachable opts0 (fail_at [(1, SSync2); (2, SWData)])
                 (firstn 4 [RAppend; RAppend; RFull; RAppend]))) = [0; 1]) by (vm_compute; reflexivity).
  assert (E2 : pending (handed 4 (nth 4 [RAppend; RAppend; RFull; RAppend] RNoop)
                 (reachable opts0 (fail_at [(1, SSync2); (2, SWData)])
                 (firstn 4 [RAppend; RAppend; RFull; RAppend]))) = [0; 1]) by (vm_compute; reflexivity).
  assert (E3 : o_file (cur (reachable opts0 (fail_at [(1, SSync2); (2, SWData)])
                 (firstn 4 [RAppend; RAppend; RFull; RAppend]))) = Some 0) by (vm_compute; reflexivity).
  rewrite E1, E2, E3 in H.
  destruct (reopen_image s img) as [| |t d]; simpl in H; try discriminate H.
  exists t, d. tauto.
Qed.

(* every crash point exists: the list of crash points of a round is not empty
   and position 0 is the state the round starts from *)
Example crash_points_exist o fo ks r :
  crash_state o fo ks r 0 = Some (handed r (nth r ks RNoop) (reachable o fo (firstn r ks))).
Proof.
  unfold crash_state. fold (reachable o fo (firstn r ks)).
  destruct (crash_states_start o fo r (nth r ks RNoop) (reachable o fo (firstn r ks))) as (l & ->).
  reflexivity.
Qed.

Print Assumptions round_prog_correct.
Print Assumptions crash_states_end.
Print Assumptions crash_states_rel.
Print Assumptions Inv2_reachable.
Print Assumptions crash_round_ok.
Print Assumptions crash_prefix_consistent.
Print Assumptions committed_round_survives.
Print Assumptions process_kill_prefix_consistent.
Print Assumptions crash_before_first_commit_refuted.
Print Assumptions crash_after_failed_cleanup_refuted.
Print Assumptions crash_without_barrier_refuted.
Print Assumptions crash_with_undone_unlink_refuted.
Print Assumptions crash_inside_full_compaction.
Print Assumptions theorem_applies_after_failures.
