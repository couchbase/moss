(* OwnersFacts.v -- proofs about the ownership model of Owners.v *)
From Coq Require Import List Arith Bool Lia.
From Moss Require Import Owners.
Import ListNotations.

(* multisets of object ids *)

Definition cn (x : oid) (l : list oid) : nat := count_occ Nat.eq_dec l x.
Arguments cn : simpl never.

Lemma cn_nil x : cn x [] = 0. Proof. reflexivity. Qed.
Lemma cn_app x l1 l2 : cn x (l1 ++ l2) = cn x l1 + cn x l2.
Proof. unfold cn. apply count_occ_app. Qed.
Lemma cn_cons x y l : cn x (y :: l) = (if Nat.eqb y x then 1 else 0) + cn x l.
Proof.
  unfold cn. simpl. destruct (Nat.eq_dec y x) as [E|E].
  - subst. rewrite Nat.eqb_refl. reflexivity.
  - apply Nat.eqb_neq in E. rewrite E. reflexivity.
Qed.
Lemma cn_in x l : In x l <-> cn x l > 0.
Proof. unfold cn. apply count_occ_In. Qed.
Lemma cn_olist x (o : option oid) :
  cn x (olist o) = match o with Some y => if Nat.eqb y x then 1 else 0 | None => 0 end.
Proof. destruct o; unfold olist; [rewrite cn_cons, cn_nil; lia | reflexivity]. Qed.

Lemma remove1_cn o l l' : remove1 o l = Some l' ->
  forall x, cn x l = (if Nat.eqb o x then 1 else 0) + cn x l'.
Proof.
  revert l'. induction l as [|y r IH]; simpl; intros l' H x; [discriminate|].
  destruct (Nat.eqb y o) eqn:E.
  - inversion H; subst. apply Nat.eqb_eq in E. subst. rewrite cn_cons. reflexivity.
  - destruct (remove1 o r) as [r'|] eqn:R; [|discriminate]. inversion H; subst.
    rewrite !cn_cons. rewrite (IH r' eq_refl x). lia.
Qed.
Lemma removes_cn rs : forall l l', removes rs l = Some l' ->
  forall x, cn x l = cn x rs + cn x l'.
Proof.
  induction rs as [|r t IH]; simpl; intros l l' H x.
  - inversion H; subst. reflexivity.
  - destruct (remove1 r l) as [l1|] eqn:R; [|discriminate].
    rewrite (remove1_cn _ _ _ R x), (IH _ _ H x), cn_cons. lia.
Qed.

Lemma upd_length i x h : length (upd i x h) = length h.
Proof. revert i. induction h; intros [|i]; simpl; auto. Qed.
Lemma nth_upd_same i x h : i < length h -> nth_error (upd i x h) i = Some x.
Proof. revert i. induction h; intros [|i] H; simpl in *; try lia; auto. apply IHh. lia. Qed.
Lemma nth_upd_other i j x h : i <> j -> nth_error (upd i x h) j = nth_error h j.
Proof.
  revert i j. induction h; intros [|i] [|j] H; simpl; auto; try lia. all: try (apply IHh; lia).
Qed.
Lemma allrefs_upd h : forall i ob ob', nth_error h i = Some ob ->
  forall x, cn x (allrefs (upd i ob' h)) + cn x (orefs ob) = cn x (allrefs h) + cn x (orefs ob').
Proof.
  induction h as [|y r IH]; intros [|i] ob ob' H x; simpl in *; try discriminate.
  - inversion H; subst. unfold allrefs. simpl. rewrite !cn_app. lia.
  - unfold allrefs in *. simpl. rewrite !cn_app. specialize (IH i ob ob' H x). lia.
Qed.
Lemma allrefs_snoc h ob x : cn x (allrefs (h ++ [ob])) = cn x (allrefs h) + cn x (orefs ob).
Proof. unfold allrefs. rewrite flat_map_app, cn_app. simpl. rewrite app_nil_r. reflexivity. Qed.
Lemma in_allrefs h a ob r : nth_error h a = Some ob -> In r (orefs ob) -> In r (allrefs h).
Proof.
  intros H1 H2. unfold allrefs. apply in_flat_map. exists ob. split; auto.
  eapply nth_error_In; eauto.
Qed.
Lemma allrefs_in h r : In r (allrefs h) -> exists a ob, nth_error h a = Some ob /\ In r (orefs ob).
Proof.
  unfold allrefs. intros H. apply in_flat_map in H. destruct H as [ob [H1 H2]].
  apply In_nth_error in H1. destruct H1 as [a Ha]. eauto.
Qed.

Lemma cnt_of_upd h i ob' x : i < length h ->
  cnt_of (upd i ob' h) x = if Nat.eqb i x then o_cnt ob' else cnt_of h x.
Proof.
  intros L. unfold cnt_of. destruct (Nat.eqb_spec i x) as [<-|N].
  - rewrite nth_upd_same; auto.
  - rewrite nth_upd_other; auto.
Qed.

Lemma nth_snoc (h : heap) ob a :
  nth_error (h ++ [ob]) a = if Nat.eqb (length h) a then Some ob else nth_error h a.
Proof.
  destruct (Nat.eqb_spec (length h) a) as [<-|N].
  - rewrite nth_error_app2, Nat.sub_diag by lia. reflexivity.
  - destruct (lt_dec a (length h)); [apply nth_error_app1; auto|].
    transitivity (@None obj); [|symmetry]; apply nth_error_None; rewrite ?app_length; simpl; lia.
Qed.

Lemma root_of_rset r s v x :
  cn x (root_of (rset r s v)) + cn x (olist (r s)) = cn x (root_of r) + cn x (olist v).
Proof.
  unfold root_of, all_slots, rset. simpl. rewrite !cn_app.
  destruct s; simpl; rewrite ?cn_app, ?cn_nil; lia.
Qed.

Lemma hrefs_app l1 l2 x :
  cn x (flat_map hrefs (l1 ++ l2)) = cn x (flat_map hrefs l1) + cn x (flat_map hrefs l2).
Proof. rewrite flat_map_app, cn_app. reflexivity. Qed.
Lemma hrefs_del l : forall i h, nth_error l i = Some h ->
  forall x, cn x (flat_map hrefs l) = cn x (hrefs h) + cn x (flat_map hrefs (del_nth i l)).
Proof.
  induction l as [|y r IH]; intros [|i] h H x; simpl in *; try discriminate.
  - inversion H; subst. rewrite cn_app. reflexivity.
  - rewrite !cn_app. rewrite (IH i h H x). lia.
Qed.

Definition hrel (P : obj -> obj -> Prop) (h h' : heap) : Prop :=
  forall o ob, nth_error h o = Some ob -> exists ob', nth_error h' o = Some ob' /\ P ob ob'.

Section Hrel.
  Variable P : obj -> obj -> Prop.
  Hypothesis P_refl : forall ob, P ob ob.

  Lemma hrel_refl h : hrel P h h.
  Proof. intros o ob H. eauto. Qed.
  Lemma hrel_trans a b c : (forall x y z, P x y -> P y z -> P x z) ->
    hrel P a b -> hrel P b c -> hrel P a c.
  Proof.
    intros T H1 H2 o ob H. destruct (H1 o ob H) as [ob1 [E1 P1]].
    destruct (H2 o ob1 E1) as [ob2 [E2 P2]]. eauto.
  Qed.
  Lemma hrel_upd h o ob ob' : nth_error h o = Some ob -> P ob ob' -> hrel P h (upd o ob' h).
  Proof.
    intros Ho Po a oa Ha. destruct (Nat.eq_dec o a) as [->|N].
    - rewrite nth_upd_same by (apply nth_error_Some; congruence). rewrite Ho in Ha. inversion Ha; subst. eauto.
    - rewrite nth_upd_other by auto. eauto.
  Qed.
  Lemma hrel_snoc h ob : hrel P h (h ++ [ob]).
  Proof.
    intros a oa Ha. rewrite nth_error_app1 by (apply nth_error_Some; congruence). eauto.
  Qed.
End Hrel.

(* release rewrites one object at a time, to [cleared ob] when its last reference goes and to
   a lower count otherwise *)
Lemma release_hrel (I : heap -> Prop) (P : obj -> obj -> Prop) :
  (forall ob, P ob ob) -> (forall x y z, P x y -> P y z -> P x z) ->
  (forall h o ob, I h -> nth_error h o = Some ob -> o_cnt ob = 1 ->
     I (upd o (cleared ob) h) /\ P ob (cleared ob)) ->
  (forall h o ob n, I h -> nth_error h o = Some ob -> o_cnt ob = S (S n) ->
     I (upd o (set_cnt ob (S n)) h) /\ P ob (set_cnt ob (S n))) ->
  forall fuel work h fs lg h' fs' lg',
  I h -> release fuel work h fs lg = Some (h', fs', lg') -> I h' /\ hrel P h h'.
Proof.
  intros Pr Pt S1 S2. induction fuel as [|f IH]; intros work h fs lg h' fs' lg' Hi H.
  - destruct work; simpl in H; [|discriminate]. inversion H; subst. split; [exact Hi|apply hrel_refl, Pr].
  - destruct work as [|o w]; simpl in H.
    + inversion H; subst. split; [exact Hi|apply hrel_refl, Pr].
    + destruct (nth_error h o) as [ob|] eqn:Ho; [|discriminate].
      assert (X : forall ob' w' fs1 lg1, I (upd o ob' h) /\ P ob ob' ->
                    release f w' (upd o ob' h) fs1 lg1 = Some (h', fs', lg') -> I h' /\ hrel P h h').
      { intros ob' w' fs1 lg1 [Hi' Po] H'. destruct (IH _ _ _ _ _ _ _ Hi' H') as [A B].
        split; [exact A|]. eapply hrel_trans; [exact Pt|eapply hrel_upd; eauto|exact B]. }
      destruct (o_cnt ob) as [|[|n]] eqn:Ec; [discriminate| |]; eapply X; eauto.
Qed.

Definition same_rank (a b : obj) : Prop := rank b = rank a.
Lemma hrel_rank h h' : hrel same_rank h h' ->
  forall r n, (exists ob, nth_error h r = Some ob /\ rank ob < n) ->
              exists ob', nth_error h' r = Some ob' /\ rank ob' < n.
Proof.
  intros W r n [ob [E L]]. destruct (W r ob E) as [ob' [E' Q]]. rewrite <- Q in L. eauto.
Qed.

(* the ownership invariant over a heap and a multiset of outside references *)

Record ginv (h : heap) (L : list oid) : Prop := mkG {
  g_cnt : forall o, cnt_of h o = cn o L + cn o (allrefs h);
  g_dead : forall o ob, nth_error h o = Some ob -> o_cnt ob = 0 -> orefs ob = [];
  g_rank : forall a ob r, nth_error h a = Some ob -> In r (orefs ob) ->
             exists ob', nth_error h r = Some ob' /\ rank ob' < rank ob
}.

Definition Inv (st : state) : Prop := ginv (hp st) (roots st).

Lemma ginv_perm h L L' : (forall x, cn x L = cn x L') -> ginv h L -> ginv h L'.
Proof.
  intros E [A B C]. constructor; auto. intros o. rewrite (A o), (E o). reflexivity.
Qed.

(* the counting premise speaks of the differences only *)
Lemma ginv_upd h L L' o ob ob' :
  ginv h L -> nth_error h o = Some ob ->
  o_kind ob' = o_kind ob -> o_top ob' = o_top ob ->
  (forall x, cn x L' + cn x (orefs ob') + (if Nat.eqb o x then o_cnt ob else 0)
             = cn x L + cn x (orefs ob) + (if Nat.eqb o x then o_cnt ob' else 0)) ->
  (o_cnt ob' = 0 -> orefs ob' = []) ->
  (forall r, In r (orefs ob') -> exists ob2, nth_error h r = Some ob2 /\ rank ob2 < rank ob) ->
  ginv (upd o ob' h) L'.
Proof.
  intros [A B C] Ho Hk Ht Hc Hd Hr.
  assert (Lo : o < length h) by (apply nth_error_Some; congruence).
  assert (Rk : rank ob' = rank ob) by (unfold rank; rewrite Hk, Ht; reflexivity).
  assert (W : hrel same_rank h (upd o ob' h)) by (eapply hrel_upd; eauto; reflexivity).
  constructor.
  - intros x. rewrite cnt_of_upd by auto.
    pose proof (allrefs_upd h o ob ob' Ho x). specialize (Hc x). specialize (A x).
    destruct (Nat.eqb_spec o x) as [<-|N]; [|lia]. unfold cnt_of in A. rewrite Ho in A. lia.
  - intros a oa Ha Hz. destruct (Nat.eq_dec o a) as [->|N].
    + rewrite nth_upd_same in Ha; auto. inversion Ha; subst. auto.
    + rewrite nth_upd_other in Ha; auto. eauto.
  - intros a oa r Ha Hin. apply (hrel_rank _ _ W).
    destruct (Nat.eq_dec o a) as [->|N].
    + rewrite nth_upd_same in Ha; auto. inversion Ha; subst. rewrite Rk. auto.
    + rewrite nth_upd_other in Ha; auto. eauto.
Qed.

Lemma ginv_fresh h L : ginv h L -> cn (length h) L = 0 /\ cn (length h) (allrefs h) = 0.
Proof.
  intros [A _ _]. specialize (A (length h)). unfold cnt_of in A.
  rewrite (proj2 (nth_error_None h (length h))) in A by lia. lia.
Qed.

Lemma ginv_snoc h L L' ob :
  ginv h L ->
  (forall x, cn x L' + cn x (orefs ob)
             = cn x L + (if Nat.eqb (length h) x then o_cnt ob else 0)) ->
  o_cnt ob > 0 ->
  (forall r, In r (orefs ob) -> exists ob2, nth_error h r = Some ob2 /\ rank ob2 < rank ob) ->
  ginv (h ++ [ob]) L'.
Proof.
  intros G Hc Hp Hr. pose proof (ginv_fresh _ _ G) as [F1 F2]. destruct G as [A B C].
  assert (W : hrel same_rank h (h ++ [ob])) by (apply hrel_snoc; reflexivity).
  constructor.
  - intros x. rewrite allrefs_snoc. specialize (Hc x). specialize (A x). unfold cnt_of in *.
    rewrite nth_snoc. destruct (Nat.eqb_spec (length h) x) as [<-|N]; lia.
  - intros a oa Ha Hz. rewrite nth_snoc in Ha.
    destruct (Nat.eqb (length h) a); [inversion Ha; subst; lia | eauto].
  - intros a oa r Ha Hin. apply (hrel_rank _ _ W).
    rewrite nth_snoc in Ha. destruct (Nat.eqb (length h) a); [inversion Ha; subst; auto | eauto].
Qed.

(* the cascade: under the invariant it never meets a released object, and
   since every step lowers the sum of all counts it ends within that much fuel *)

Lemma total_upd h : forall o ob ob', nth_error h o = Some ob ->
  total (upd o ob' h) + o_cnt ob = total h + o_cnt ob'.
Proof.
  induction h as [|y r IH]; intros [|o] ob ob' H; simpl in *; try discriminate.
  - inversion H; subst. lia.
  - specialize (IH o ob ob' H). lia.
Qed.
Lemma total_ge h o ob : nth_error h o = Some ob -> o_cnt ob <= total h.
Proof.
  revert o. induction h as [|y r IH]; intros [|o] H; simpl in *; try discriminate.
  - inversion H; subst. lia.
  - specialize (IH o H). lia.
Qed.

Lemma release_total : forall fuel work h fs lg R,
  ginv h (work ++ R) -> total h <= fuel ->
  exists h' fs' lg', release fuel work h fs lg = Some (h', fs', lg') /\ ginv h' R.
Proof.
  induction fuel as [|f IH]; intros work h fs lg R G T; destruct work as [|o w]; simpl; eauto.
  all: pose proof (g_cnt _ _ G o) as A; simpl in A; rewrite cn_cons, Nat.eqb_refl in A;
    unfold cnt_of in A; destruct (nth_error h o) as [ob|] eqn:Ho; [|lia].
  { pose proof (total_ge h o ob Ho). lia. }
  destruct (o_cnt ob) as [|[|n]] eqn:Ec; [lia| |]; apply IH.
  - (* reaches zero *)
    rewrite <- app_assoc. eapply (ginv_upd h _ _ o ob (cleared ob) G Ho); simpl; auto.
    + intros x. change (orefs (cleared ob)) with (@nil oid).
      rewrite !cn_app, cn_cons, cn_app, cn_nil, Ec. destruct (Nat.eqb o x); simpl; lia.
    + intros r [].
  - pose proof (total_upd h o ob (cleared ob) Ho). simpl in H. lia.
  - (* stays positive *)
    eapply (ginv_upd h _ _ o ob (set_cnt ob (S n)) G Ho); simpl; auto.
    + intros x. change (orefs (set_cnt ob (S n))) with (orefs ob).
      rewrite cn_cons, Ec. destruct (Nat.eqb o x); simpl; lia.
    + discriminate.
    + intros r. apply (g_rank _ _ G o ob r Ho).
  - pose proof (total_upd h o ob (set_cnt ob (S n)) Ho). simpl in H. lia.
Qed.

(* every primitive of the language preserves the invariant *)

Definition preserves (m : M) : Prop := forall st st', Inv st -> m st = Some st' -> Inv st'.

Lemma pres_if (c : bool) a b : preserves a -> preserves b -> preserves (if c then a else b).
Proof. destruct c; auto. Qed.

Ltac roots_cn := unfold roots; simpl; repeat (rewrite cn_app || rewrite cn_cons).

Lemma pres_addref o : preserves (addref o).
Proof.
  intros st st' I H. unfold addref in H.
  destruct (nth_error (hp st) o) as [ob|] eqn:Ho; [|discriminate].
  destruct (o_cnt ob) as [|n] eqn:Ec; [discriminate|]. inversion H; subst; clear H.
  eapply (ginv_upd _ _ _ o ob _ I Ho); simpl; auto.
  - intros x. change (orefs (set_cnt ob (S (S n)))) with (orefs ob).
    roots_cn. rewrite Ec. destruct (Nat.eqb o x); simpl; lia.
  - discriminate.
  - intros r. apply (g_rank _ _ I o ob r Ho).
Qed.

Lemma decref_release st o l : Inv st -> remove1 o (hand st) = Some l ->
  exists h fs lg,
    release (S (total (hp st))) [o] (hp st) (files st) (elog st) = Some (h, fs, lg) /\
    ginv h (root_of (regs st) ++ flat_map hrefs (handles st) ++ l ++ leaked st).
Proof.
  intros I R. apply release_total; [|lia].
  eapply ginv_perm; [|exact I]. intros x. pose proof (remove1_cn _ _ _ R x) as Q.
  simpl. rewrite cn_cons. roots_cn. lia.
Qed.

Lemma pres_decref o : preserves (decref o).
Proof.
  intros st st' I H. unfold decref in H.
  destruct (remove1 o (hand st)) as [l|] eqn:R; [|discriminate].
  destruct (decref_release st o l I R) as [h [fs [lg [E G]]]].
  rewrite E in H. inversion H; subst. exact G.
Qed.

(* progress of the two primitives that stand for the real AddRef / DecRef:
   under the ownership invariant, DecRef of a reference that is held never
   meets a released object and its cascade ends (within the fuel), and AddRef
   of anything a root or a live object refers to succeeds.  What can still make
   the model refuse an operation is bookkeeping only (a local, slot or handle
   index used out of turn), which no_fault_bounded_partial explores. *)

Lemma in_remove1 o l : In o l -> exists l', remove1 o l = Some l'.
Proof.
  induction l as [|y r IH]; intros H; [destruct H|]. simpl.
  destruct (Nat.eqb y o) eqn:E; [eauto|]. destruct H as [H|H].
  - subst. rewrite Nat.eqb_refl in E. discriminate.
  - destruct (IH H) as [l' ->]. eauto.
Qed.

Theorem decref_of_held_reference_succeeds : forall st o,
  Inv st -> In o (hand st) -> exists st', decref o st = Some st'.
Proof.
  intros st o I Hin. unfold decref. destruct (in_remove1 o _ Hin) as [l R]. rewrite R.
  destruct (decref_release st o l I R) as [h [fs [lg [E _]]]]. rewrite E. eauto.
Qed.

Theorem addref_of_referenced_object_succeeds : forall st o,
  Inv st -> In o (roots st ++ allrefs (hp st)) -> exists st', addref o st = Some st'.
Proof.
  intros st o [A _ _] Hin. specialize (A o). apply cn_in in Hin. rewrite cn_app in Hin.
  unfold addref, cnt_of in *. destruct (nth_error (hp st) o) as [ob|]; [|lia].
  destruct (o_cnt ob); [lia|eauto].
Qed.

Lemma rank_lt_all_spec h rs n : rank_lt_all h rs n = true ->
  forall r, In r rs -> exists ob2, nth_error h r = Some ob2 /\ rank ob2 < n.
Proof.
  unfold rank_lt_all. intros H r Hin. rewrite forallb_forall in H. specialize (H r Hin).
  destruct (nth_error h r) as [ob2|]; [|discriminate]. exists ob2. split; auto.
  apply Nat.ltb_lt in H. exact H.
Qed.

Lemma pres_alloc k top rs ks file : preserves (alloc k top rs ks file).
Proof.
  intros st st' I H. unfold alloc in H.
  destruct (removes (rs ++ ks) (hand st)) as [l|] eqn:R; [|discriminate].
  destruct (rank_lt_all _ _ _) eqn:K; [|discriminate]. inversion H; subst; clear H.
  eapply ginv_snoc; [exact I| | simpl; lia | apply rank_lt_all_spec; exact K].
  intros x. pose proof (removes_cn _ _ _ R x) as Q. roots_cn. unfold orefs; simpl. lia.
Qed.

Lemma pres_setrefs a rs : preserves (setrefs a rs).
Proof.
  intros st st' I H. unfold setrefs in H.
  destruct (nth_error (hp st) a) as [ob|] eqn:Ha; [|discriminate].
  destruct (o_cnt ob) as [|n] eqn:Ec; [discriminate|].
  destruct (removes rs (hand st)) as [l|] eqn:R; [|discriminate].
  destruct (rank_lt_all _ _ _) eqn:K; [|discriminate]. inversion H; subst; clear H.
  eapply (ginv_upd _ _ _ a ob _ I Ha); simpl; auto.
  - intros x. pose proof (removes_cn _ _ _ R x) as Q. roots_cn. unfold orefs. simpl.
    rewrite !cn_app. lia.
  - rewrite Ec. discriminate.
  - intros r Hin. unfold orefs in Hin. simpl in Hin. apply in_app_or in Hin. destruct Hin as [Hin|Hin].
    + eapply rank_lt_all_spec in K; eauto.
    + apply (g_rank _ _ I a ob r Ha). unfold orefs. apply in_or_app. auto.
Qed.

Lemma pres_put s o : preserves (put s o).
Proof.
  intros st st' I H. unfold put in H. destruct (regs st s) eqn:Rs; [discriminate|].
  destruct (remove1 o (hand st)) as [l|] eqn:R; [|discriminate]. inversion H; subst; clear H.
  unfold Inv. simpl. eapply ginv_perm; [|exact I]. intros x.
  pose proof (remove1_cn _ _ _ R x) as Q. pose proof (root_of_rset (regs st) s (Some o) x) as P.
  rewrite Rs in P. simpl in P. rewrite cn_cons, !cn_nil in P. roots_cn. lia.
Qed.
Lemma pres_take s : preserves (take s).
Proof.
  intros st st' I H. unfold take in H. inversion H; subst; clear H.
  unfold Inv. simpl. eapply ginv_perm; [|exact I]. intros x.
  pose proof (root_of_rset (regs st) s None x) as P. simpl in P. rewrite cn_nil in P. roots_cn. lia.
Qed.
Lemma pres_pushh h : preserves (pushh h).
Proof.
  intros st st' I H. unfold pushh in H.
  destruct (removes (hrefs h) (hand st)) as [l|] eqn:R; [|discriminate]. inversion H; subst; clear H.
  unfold Inv. simpl. eapply ginv_perm; [|exact I]. intros x.
  pose proof (removes_cn _ _ _ R x) as Q. roots_cn. rewrite hrefs_app. simpl. rewrite app_nil_r. lia.
Qed.
Lemma pres_poph i : preserves (poph i).
Proof.
  intros st st' I H. unfold poph in H.
  destruct (nth_error (handles st) i) as [h|] eqn:E; [|discriminate]. inversion H; subst; clear H.
  unfold Inv. simpl. eapply ginv_perm; [|exact I]. intros x.
  pose proof (hrefs_del _ _ _ E x) as Q. roots_cn. lia.
Qed.
Lemma pres_forget o : preserves (forget o).
Proof.
  intros st st' I H. unfold forget in H.
  destruct (remove1 o (hand st)) as [l|] eqn:R; [|discriminate]. inversion H; subst; clear H.
  unfold Inv. simpl. eapply ginv_perm; [|exact I]. intros x.
  pose proof (remove1_cn _ _ _ R x) as Q. roots_cn. lia.
Qed.
Lemma pres_set_ctl f : preserves (set_ctl f).
Proof. intros st st' I H. unfold set_ctl in H. inversion H; subst. exact I. Qed.

Lemma pres_rewrite (f : obj -> obj) o :
  (forall ob, o_kind (f ob) = o_kind ob /\ o_top (f ob) = o_top ob /\ o_cnt (f ob) = o_cnt ob /\
              orefs (f ob) = orefs ob) ->
  preserves (fun st => match nth_error (hp st) o with
                       | Some ob => Some (with_hp st (upd o (f ob) (hp st)) (files st) (elog st))
                       | None => None
                       end).
Proof.
  intros F st st' I H.
  destruct (nth_error (hp st) o) as [ob|] eqn:Ho; [|discriminate]. inversion H; subst; clear H.
  destruct (F ob) as [Fk [Ft [Fc Fr]]].
  apply (ginv_upd _ (roots st) _ o ob _ I Ho Fk Ft); rewrite ?Fc, ?Fr.
  - reflexivity.
  - apply (g_dead _ _ I o ob Ho).
  - intros r. apply (g_rank _ _ I o ob r Ho).
Qed.
Lemma pres_setrm o : preserves (setrm o).
Proof. apply (pres_rewrite set_rm). intros ob. repeat split. Qed.

Lemma pres_unlog : preserves unlog.
Proof. intros st st' I H. inversion H; subst. exact I. Qed.
Lemma pres_bump_file : preserves bump_file.
Proof. intros st st' I H. inversion H; subst. exact I. Qed.

(* one generic argument over the structure of an operation's program: what
   holds of every primitive, for a preorder on states, holds of the program *)
Definition sat (R : state -> state -> Prop) (m : M) : Prop :=
  forall st st', m st = Some st' -> R st st'.

(* put, take, forget and the plain updates of the control state are left to
   the relation at hand *)
Record PrimOK (R : state -> state -> Prop) : Prop := mkPrimOK {
  p_refl : forall st, R st st;
  p_trans : forall a b c, R a b -> R b c -> R a c;
  p_addref : forall o, sat R (addref o);
  p_decref : forall o, sat R (decref o);
  p_alloc : forall k t rs ks f, sat R (alloc k t rs ks f);
  p_setrefs : forall a rs, sat R (setrefs a rs);
  p_pushh : forall h, sat R (pushh h);
  p_poph : forall i, sat R (poph i);
  p_setrm : forall o, sat R (setrm o)
}.

Lemma bind_inv (a b : M) st st' : (a ;; b) st = Some st' ->
  exists s, a st = Some s /\ b s = Some st'.
Proof. unfold bind. destruct (a st) as [s|]; [eauto|discriminate]. Qed.
Lemma guard_inv b m st st' : guard b m st = Some st' ->
  (b st = true /\ m st = Some st') \/ (b st = false /\ st' = st).
Proof. unfold guard. destruct (b st); intros H; [auto|]. inversion H. auto. Qed.
Lemma finish_same st st' : finish st = Some st' -> st' = st.
Proof. unfold finish. destruct (hand st); intros H; inversion H; reflexivity. Qed.

Lemma finish_inv (m : M) st st' : (m ;; finish) st = Some st' -> m st = Some st' /\ hand st' = [].
Proof.
  intros H. apply bind_inv in H. destruct H as [s [B F]].
  unfold finish in F. destruct (hand s) eqn:E; inversion F; subst. auto.
Qed.

Section Sat.
  Variable R : state -> state -> Prop.
  Hypothesis HP : PrimOK R.

  Lemma sat_ret : sat R ret.
  Proof. intros st st' H. inversion H; subst. apply (p_refl R HP). Qed.
  Lemma sat_bind a b : sat R a -> sat R b -> sat R (a ;; b).
  Proof.
    intros Pa Pb st st' H. apply bind_inv in H. destruct H as [s [H1 H2]].
    eapply (p_trans R HP); eauto.
  Qed.
  Lemma sat_rd {A} (f : state -> A) k : (forall a, sat R (k a)) -> sat R (rd f k).
  Proof. intros P st st' H. unfold rd in H. eapply P; eauto. Qed.
  Lemma sat_whenS {A} (x : option A) k : (forall a, sat R (k a)) -> sat R (whenS x k).
  Proof. intros P. destruct x; simpl; [apply P | apply sat_ret]. Qed.
  Lemma sat_odecref x : sat R (odecref x).
  Proof. apply sat_whenS. apply (p_decref R HP). Qed.
  Lemma sat_each {A} (l : list A) k : (forall a, sat R (k a)) -> sat R (each l k).
  Proof. intros P. induction l; simpl; [apply sat_ret | apply sat_bind; auto]. Qed.
  Lemma sat_guard b m : sat R m -> sat R (guard b m).
  Proof.
    intros P st st' H. apply guard_inv in H. destruct H as [[_ H]|[_ ->]]; [eauto|].
    apply (p_refl R HP).
  Qed.
  Lemma sat_check b : sat R (check b).
  Proof. intros st st' H. unfold check in H. destruct (b st); inversion H; subst. apply (p_refl R HP). Qed.
  Lemma sat_finish : sat R finish.
  Proof. intros st st' H. apply finish_same in H. subst. apply (p_refl R HP). Qed.
  Lemma sat_alloc_k k top rs ks file cont :
    (forall id, sat R (cont id)) -> sat R (alloc_k k top rs ks file cont).
  Proof. intros P. unfold alloc_k. apply sat_rd. intros id. apply sat_bind; auto. apply (p_alloc R HP). Qed.
End Sat.

Ltac sat_comb HP :=
  match goal with
  | |- sat _ ret => apply (sat_ret _ HP)
  | |- sat _ finish => apply (sat_finish _ HP)
  | |- sat _ (check _) => apply (sat_check _ HP)
  | |- sat _ (addref _) => apply (p_addref _ HP)
  | |- sat _ (decref _) => apply (p_decref _ HP)
  | |- sat _ (setrefs _ _) => apply (p_setrefs _ HP)
  | |- sat _ (pushh _) => apply (p_pushh _ HP)
  | |- sat _ (poph _) => apply (p_poph _ HP)
  | |- sat _ (setrm _) => apply (p_setrm _ HP)
  | |- sat _ (bind _ _) => apply (sat_bind _ HP)
  | |- sat _ (guard _ _) => apply (sat_guard _ HP)
  | |- sat _ (rd _ _) => apply sat_rd; intro
  | |- sat _ (whenS _ _) => apply (sat_whenS _ HP); intro
  | |- sat _ (odecref _) => apply (sat_odecref _ HP)
  | |- sat _ (each _ _) => apply (sat_each _ HP); intro
  | |- sat _ (alloc_k _ _ _ _ _ _) => apply (sat_alloc_k _ HP); intro
  | |- sat _ (match ?x with _ => _ end) => destruct x
  | |- sat _ (if ?x then _ else _) => destruct x
  end.

Section SatLoop.
  Variable R : state -> state -> Prop.
  Hypothesis HP : PrimOK R.

  Lemma sat_build_kids n : forall i f acc cont,
    (forall l, sat R (cont l)) -> sat R (build_kids n i f acc cont).
  Proof.
    induction n as [|n IH]; intros i f acc cont P; simpl; [apply P|].
    repeat sat_comb HP; apply IH; exact P.
  Qed.
  Lemma sat_snapshot_build cont : (forall id, sat R (cont id)) -> sat R (snapshot_build cont).
  Proof.
    intros P. unfold snapshot_build. repeat sat_comb HP; apply sat_build_kids; intro;
      repeat sat_comb HP; apply P.
  Qed.
  Lemma sat_ll_iter s cont : (forall x, sat R (cont x)) -> sat R (ll_iter s cont).
  Proof. intros P. unfold ll_iter. repeat sat_comb HP; apply P. Qed.
  Lemma sat_new_mmaps n : forall fr acc cont,
    (forall l, sat R (cont l)) -> sat R (new_mmaps n fr acc cont).
  Proof.
    induction n as [|n IH]; intros fr acc cont P; simpl; [apply P|].
    repeat sat_comb HP; apply IH; exact P.
  Qed.
  Lemma sat_load_footer top old nnew fr ks tg cont :
    (forall id, sat R (cont id)) -> sat R (load_footer top old nnew fr ks tg cont).
  Proof.
    intros P. unfold load_footer. repeat sat_comb HP. apply sat_new_mmaps. intro.
    repeat sat_comb HP. apply P.
  Qed.
  Lemma sat_load_kids n : forall i oldf keep nnew fr acc cont,
    (forall l, sat R (cont l)) -> sat R (load_kids n i oldf keep nnew fr acc cont).
  Proof.
    induction n as [|t n IH]; intros i oldf keep nnew fr acc cont P; simpl; [apply P|].
    repeat sat_comb HP. apply sat_load_footer. intro. apply IH. exact P.
  Qed.
  Lemma sat_plain_kids n : forall acc cont,
    (forall l, sat R (cont l)) -> sat R (plain_kids n acc cont).
  Proof.
    induction n as [|n IH]; intros acc cont P; simpl; [apply P|].
    repeat sat_comb HP. apply IH. exact P.
  Qed.
  Lemma sat_merge_kids cs : forall acc cont,
    (forall l, sat R (cont l)) -> sat R (merge_kids cs acc cont).
  Proof.
    induction cs as [|c r IH]; intros acc cont P; simpl; [apply P|].
    repeat sat_comb HP; apply IH; exact P.
  Qed.
  Lemma sat_refresh_kids cs : forall i f, sat R (refresh_kids cs i f).
  Proof.
    induction cs as [|c r IH]; intros i f; simpl; [apply sat_ret; exact HP|].
    repeat sat_comb HP; apply IH.
  Qed.
End SatLoop.

(* prim solves what PrimOK leaves out (put, take, forget, set_ctl, bump_file,
   unlog) for the relation at hand *)
Ltac sat_go HP prim :=
  repeat first
    [ sat_comb HP
    | match goal with
      | |- sat _ (snapshot_build _) => apply (sat_snapshot_build _ HP); intro
      | |- sat _ (ll_iter _ _) => apply (sat_ll_iter _ HP); intro
      | |- sat _ (load_footer _ _ _ _ _ _ _) => apply (sat_load_footer _ HP); intro
      | |- sat _ (load_kids _ _ _ _ _ _ _ _) => apply (sat_load_kids _ HP); intro
      | |- sat _ (plain_kids _ _ _) => apply (sat_plain_kids _ HP); intro
      | |- sat _ (merge_kids _ _ _) => apply (sat_merge_kids _ HP); intro
      | |- sat _ (refresh_kids _ _ _) => apply (sat_refresh_kids _ HP)
      | |- sat _ (build_kids _ _ _ _ _) => apply (sat_build_kids _ HP); intro
      | |- sat _ (new_mmaps _ _ _ _) => apply (sat_new_mmaps _ HP); intro
      end
    | prim ].
Ltac unfold_ops :=
  unfold step; simpl body;
  unfold op_snap_cached, op_snap_fresh, op_coll_get, op_child_snap, op_store_snap, op_prev,
         op_iter_start, op_iter_seek, op_iter_start_pre_fix, op_iter_seek_pre_fix, op_close_h, op_batch, op_drop_children, op_merger_ingest,
         op_merger_swap, op_merger_handover, op_persist_begin, op_persist_run,
         op_persist_publish, op_coll_close, op_store_close,
         coll_close_body, store_close_body, invalidate, close_slot, compact_full, start_or_reuse, newfile.

(* taking a primitive apart *)
Ltac prim_inv H :=
  repeat match type of H with
         | context [match ?x with _ => _ end] => destruct x eqn:?; try discriminate
         | context [if ?x then _ else _] => destruct x eqn:?; try discriminate
         end;
  inversion H; subst; clear H.
Ltac by_prim fin :=
  let H := fresh in
  intros ? ? H; unfold put, take, set_ctl, bump_file, forget, unlog in H; prim_inv H; red; simpl; fin.

(* (1) every operation preserves the ownership invariant, so it holds after
   every sequence of operations *)

Definition Rinv (a b : state) : Prop := Inv a -> Inv b.
Lemma pres_sat m : preserves m -> sat Rinv m.
Proof. intros P st st' H I. eauto. Qed.
Lemma sat_pres m : sat Rinv m -> preserves m.
Proof. intros S st st' I H. exact (S st st' H I). Qed.

Lemma Rinv_ok : PrimOK Rinv.
Proof.
  constructor; unfold Rinv; auto; intros; apply pres_sat.
  - apply pres_addref.
  - apply pres_decref.
  - apply pres_alloc.
  - apply pres_setrefs.
  - apply pres_pushh.
  - apply pres_poph.
  - apply pres_setrm.
Qed.
Ltac inv_prim :=
  apply pres_sat;
  first [ apply pres_put | apply pres_take | apply pres_forget | apply pres_set_ctl
        | apply pres_bump_file | apply pres_unlog ].

Theorem step_preserves o : preserves (step o).
Proof. apply sat_pres. destruct o; unfold_ops; sat_go Rinv_ok inv_prim. Qed.

(* stated for a step function and the run over it, to serve the extended
   system of OwnersRevert.v too *)
Section Runs.
  Context {O : Type} (stp : O -> M) (runf : state -> list O -> option state).
  Hypothesis runf_nil : forall st, runf st [] = Some st.
  Hypothesis runf_cons : forall st o r,
    runf st (o :: r) = match stp o st with Some s => runf s r | None => None end.

  Lemma runs_inv_on (ok : O -> bool) (P : state -> Prop) :
    (forall o st st', ok o = true -> P st -> stp o st = Some st' -> P st') ->
    forall ops st st', forallb ok ops = true -> P st -> runf st ops = Some st' -> P st'.
  Proof.
    intros S. induction ops as [|o r IH]; intros st st' F I H.
    - rewrite runf_nil in H. inversion H; subst. exact I.
    - rewrite runf_cons in H. simpl in F. apply andb_prop in F. destruct F as [F1 F2].
      destruct (stp o st) as [s|] eqn:E; [|discriminate]. eauto.
  Qed.
  Lemma runs_inv (P : state -> Prop) :
    (forall o st st', P st -> stp o st = Some st' -> P st') ->
    forall ops st st', P st -> runf st ops = Some st' -> P st'.
  Proof.
    intros S ops st st'. apply (runs_inv_on (fun _ => true)); [eauto | induction ops; auto].
  Qed.
End Runs.

Definition run_from_on := runs_inv_on step run_from (fun _ => eq_refl) (fun _ _ _ => eq_refl).
Definition run_from_ind := runs_inv step run_from (fun _ => eq_refl) (fun _ _ _ => eq_refl).

Lemma Inv_init : Inv init.
Proof.
  constructor.
  - intros o. unfold cnt_of, init, roots. simpl.
    destruct o as [|[|o]]; simpl; try reflexivity.
    destruct o; reflexivity.
  - intros o ob H Z. destruct o as [|[|o]]; simpl in H.
    + inversion H; subst. discriminate.
    + inversion H; subst. discriminate.
    + destruct o; discriminate.
  - intros a ob r H Hin. destruct a as [|[|a]]; simpl in H.
    + inversion H; subst. destruct Hin.
    + inversion H; subst. destruct Hin as [<-|[]]. eexists. split; [reflexivity|]. unfold rank. simpl. lia.
    + destruct a; discriminate.
Qed.

Lemma run_from_inv ops : forall st st', Inv st -> run_from st ops = Some st' -> Inv st'.
Proof. exact (run_from_ind Inv step_preserves ops). Qed.
Lemma run_inv ops st : run ops = Some st -> Inv st.
Proof. exact (run_from_inv ops init st Inv_init). Qed.

(* count = number of references held by live objects, roots, handles *)
Theorem ownership_invariant : forall ops st, run ops = Some st ->
  forall o, cnt_of (hp st) o = cn o (roots st) + cn o (allrefs (hp st)).
Proof. intros ops st H. exact (g_cnt _ _ (run_inv ops st H)). Qed.

(* no function leaves a counted reference in a local *)
Theorem locals_released : forall ops st, run ops = Some st -> hand st = [].
Proof.
  intros ops st. apply (run_from_ind (fun s => hand s = [])); [|reflexivity].
  intros o s s' _ H. apply (finish_inv _ s s' H).
Qed.

(* (2) no use after release: whatever a root, a handle or a live object holds
   a counted reference on is alive; released objects hold nothing *)
Lemma inv_no_dangling st : Inv st ->
  (forall o, In o (roots st) -> cnt_of (hp st) o > 0) /\
  (forall a ob r, nth_error (hp st) a = Some ob -> In r (orefs ob) ->
                  o_cnt ob > 0 /\ cnt_of (hp st) r > 0).
Proof.
  intros [A B C]. split.
  - intros o Hin. rewrite (A o). apply cn_in in Hin. lia.
  - intros a ob r Ha Hin. split.
    + destruct (o_cnt ob) eqn:E; [|lia]. rewrite (B a ob Ha E) in Hin. destruct Hin.
    + rewrite (A r). assert (In r (allrefs (hp st))) by (eapply in_allrefs; eauto).
      apply cn_in in H. lia.
Qed.
Theorem no_dangling_reference : forall ops st, run ops = Some st ->
  (forall o, In o (roots st) -> cnt_of (hp st) o > 0) /\
  (forall a ob r, nth_error (hp st) a = Some ob -> In r (orefs ob) ->
                  o_cnt ob > 0 /\ cnt_of (hp st) r > 0).
Proof. intros ops st H. exact (inv_no_dangling st (run_inv ops st H)). Qed.

Lemma inv_dead_holds_nothing st : Inv st ->
  forall o ob, nth_error (hp st) o = Some ob -> o_cnt ob = 0 -> o_refs ob = [] /\ o_kids ob = [].
Proof. intros I o ob Ho Z. apply app_eq_nil. exact (g_dead _ _ I o ob Ho Z). Qed.
Theorem released_objects_hold_nothing : forall ops st, run ops = Some st ->
  forall o ob, nth_error (hp st) o = Some ob -> o_cnt ob = 0 -> o_refs ob = [] /\ o_kids ob = [].
Proof. intros ops st H. exact (inv_dead_holds_nothing st (run_inv ops st H)). Qed.

(* handles keep their data alive: everything reachable through counted
   references from an open handle (snapshot -> wrapper -> footer -> mappings ->
   file, child stacks, child footers; the footers an iterator closes) is alive,
   whatever happened since the handle was opened *)
Inductive reach (h : heap) : oid -> oid -> Prop :=
  | reach_here : forall o, reach h o o
  | reach_step : forall a ob r o, nth_error h a = Some ob -> In r (orefs ob) ->
                                  reach h r o -> reach h a o.

Lemma inv_handle_alive st : Inv st ->
  forall hd r o, In hd (handles st) -> In r (hrefs hd) -> reach (hp st) r o ->
    cnt_of (hp st) o > 0.
Proof.
  intros I hd r o Hh Hr Hreach. destruct (inv_no_dangling st I) as [D1 D2].
  assert (L : cnt_of (hp st) r > 0).
  { apply D1. unfold roots. apply in_or_app. right. apply in_or_app. left.
    apply in_flat_map. exists hd. auto. }
  clear Hh Hr. induction Hreach as [o|a ob r o Ha Hin _ IH]; auto.
  apply IH. apply (D2 a ob r Ha Hin).
Qed.
Theorem handle_data_alive : forall ops st, run ops = Some st ->
  forall hd r o, In hd (handles st) -> In r (hrefs hd) -> reach (hp st) r o ->
    cnt_of (hp st) o > 0.
Proof. intros ops st H. exact (inv_handle_alive st (run_inv ops st H)). Qed.

Lemma reach_snoc h x y z ob :
  reach h x y -> nth_error h y = Some ob -> In z (orefs ob) -> reach h x z.
Proof.
  intros R. induction R as [o|a ob0 r o Ha Hin _ IH]; intros E I; eauto using reach_here, reach_step.
Qed.
Lemma reach_at h x a r : reach h x a -> In r (refs_at h a ++ kids_at h a) -> reach h x r.
Proof.
  unfold refs_at, kids_at. intros Ra Hr. destruct (nth_error h a) as [ob|] eqn:Ea; [|destruct Hr].
  eapply reach_snoc; eauto.
Qed.

(* when no root holds anything, nothing is alive: references only point
   down the ranks (stack > wrapper > footer > mapping > file), so a live object
   would need an infinite chain of live holders *)
Lemma rank_le6 ob : rank ob <= 6.
Proof. unfold rank. destruct (o_kind ob), (o_top ob); lia. Qed.

Lemma no_roots_all_zero h : ginv h [] -> forall o, cnt_of h o = 0.
Proof.
  intros [A B C].
  assert (K : forall n o ob, nth_error h o = Some ob -> rank ob + n >= 7 -> o_cnt ob = 0).
  { induction n as [|n IH]; intros o ob Ho Hr.
    - pose proof (rank_le6 ob). lia.
    - destruct (o_cnt ob) eqn:E; [reflexivity|]. exfalso.
      pose proof (A o) as Ao. unfold cnt_of in Ao. rewrite Ho, E, cn_nil in Ao.
      assert (In o (allrefs h)) by (apply cn_in; lia).
      apply allrefs_in in H. destruct H as [a [oa [Ha Hin]]].
      destruct (C a oa o Ha Hin) as [ob2 [H2 H3]]. rewrite Ho in H2. inversion H2; subst ob2.
      assert (Z : o_cnt oa = 0) by (apply (IH a oa Ha); lia).
      rewrite (B a oa Ha Z) in Hin. destruct Hin. }
  intros o. unfold cnt_of. destruct (nth_error h o) as [ob|] eqn:Ho; [|reflexivity].
  apply (K 7 o ob Ho). lia.
Qed.

Lemma root_of_nil_all (r : regfile) : root_of r = [] -> forall s, r s = None.
Proof.
  unfold root_of, all_slots. simpl. intros H s.
  destruct (r SFooter) eqn:E1; [discriminate|]. destruct (r SLL) eqn:E2; [discriminate|].
  destruct (r STop) eqn:E3; [discriminate|]. destruct (r SMid) eqn:E4; [discriminate|].
  destruct (r SBase) eqn:E5; [discriminate|]. destruct (r SClean) eqn:E6; [discriminate|].
  destruct (r SCached) eqn:E7; [discriminate|]. destruct (r MMid) eqn:E8; [discriminate|].
  destruct (r MBase) eqn:E9; [discriminate|]. destruct (r PNext) eqn:E10; [discriminate|].
  destruct s; assumption.
Qed.
Lemma root_of_slot (r : regfile) s o : r s = Some o -> In o (root_of r).
Proof.
  intros E. apply in_flat_map. exists s. rewrite E. split; [destruct s|]; simpl; auto 12.
Qed.
Lemma root_of_none (r : regfile) : (forall s, r s = None) -> root_of r = [].
Proof. intros H. unfold root_of. induction all_slots; simpl; [|rewrite H]; auto. Qed.

Lemma PrimOK_frame (R : state -> state -> Prop) :
  (forall a, R a a) -> (forall a b c, R a b -> R b c -> R a c) ->
  (forall a b : state, regs b = regs a -> ct b = ct a -> leaked b = leaked a -> R a b) ->
  PrimOK R.
Proof.
  intros Hr Ht Hf. constructor; auto; intros; intros st st' H; apply Hf.
  all: unfold addref, decref, alloc, setrefs, pushh, poph, setrm in H; prim_inv H; reflexivity.
Qed.

(* nothing but the error return of startIterator leaks a reference *)
Definition Rleak (a b : state) : Prop := leaked b = leaked a.

Lemma Rleak_ok : PrimOK Rleak.
Proof. apply PrimOK_frame; unfold Rleak; congruence. Qed.

Lemma step_keeps_leaked o : no_ll_error o = true -> sat Rleak (step o).
Proof.
  (* the one forget of the model stands in the branch that N excludes *)
  intros N. destruct o; unfold_ops;
    sat_go Rleak_ok ltac:(first [ by_prim reflexivity | discriminate N ]).
Qed.

Theorem no_leak_without_error_return : forall ops st,
  forallb no_ll_error ops = true -> run ops = Some st -> leaked st = [].
Proof.
  intros ops st F. apply (run_from_on no_ll_error (fun s => leaked s = [])); auto.
  intros o s s' N L H. rewrite (step_keeps_leaked o N s s' H). exact L.
Qed.

Definition Rfr (ok : slot -> bool) (a b : state) : Prop :=
  ct b = ct a /\ forall s, ok s = false -> regs b s = regs a s.

Lemma Rfr_ok ok : PrimOK (Rfr ok).
Proof.
  apply PrimOK_frame; unfold Rfr.
  - auto.
  - intros a b c [H1 H2] [H3 H4]. split; [congruence|]. intros s E. rewrite H4, H2; auto.
  - intros a b -> -> _. auto.
Qed.
Lemma rset_other r s v s' : slot_eqb s s' = false -> rset r s v s' = r s'.
Proof. unfold rset. intros ->. reflexivity. Qed.
Lemma slot_eqb_refl s : slot_eqb s s = true.
Proof. destruct s; reflexivity. Qed.
Lemma slot_eqb_eq a b : slot_eqb a b = true -> a = b.
Proof. destruct a, b; simpl; intros H; try discriminate; reflexivity. Qed.
Lemma Rfr_rset ok s v (st st' : state) :
  regs st' = rset (regs st) s v -> ct st' = ct st -> ok s = true -> Rfr ok st st'.
Proof.
  intros E C K. split; auto. intros s' N. rewrite E. apply rset_other.
  destruct (slot_eqb s s') eqn:Q; auto. apply slot_eqb_eq in Q. congruence.
Qed.
Ltac fr_prim :=
  let H := fresh in
  intros ? ? H; unfold put, take, forget, unlog in H; prim_inv H;
  first [ eapply Rfr_rset; reflexivity | split; reflexivity ].

(* the operations on handles touch neither a root slot nor the control state *)
Definition handle_op (o : op) : bool :=
  match o with
  | OpChildSnap _ _ | OpStoreSnap | OpPrev _ _ _ _ _ | OpIterStart _ _ | OpIterSeek _ _
  | OpCloseH _ | OpCollGet _ | OpIterStart_pre_fix _ _ | OpIterSeek_pre_fix _ => true
  | _ => false
  end.
Lemma handle_op_frame o : handle_op o = true -> sat (Rfr (fun _ => false)) (step o).
Proof.
  intros N. destruct o; try discriminate N; unfold_ops;
    sat_go (Rfr_ok (fun _ => false)) fr_prim.
Qed.

(* only Close changes copen / sopen *)
Definition Rc (a b : state) : Prop :=
  copen (ct b) = copen (ct a) /\ sopen (ct b) = sopen (ct a).
Lemma Rc_ok : PrimOK Rc.
Proof.
  apply PrimOK_frame; unfold Rc.
  - auto.
  - intros a b c [H1 H2] [H3 H4]. split; congruence.
  - intros a b _ -> _. auto.
Qed.
Definition close_op (o : op) : bool :=
  match o with OpCollClose | OpStoreClose => true | _ => false end.
Lemma nonclose_frame o : close_op o = false -> sat Rc (step o).
Proof.
  intros N. destruct o; try discriminate N; unfold_ops; sat_go Rc_ok ltac:(by_prim auto).
Qed.

(* the control invariant: a closed collection / store holds no root *)
Definition Cinv (st : state) : Prop :=
  (copen (ct st) = false ->
     mph (ct st) = 0 /\ pph (ct st) = 0 /\ none_at coll_slots st = true) /\
  (sopen (ct st) = false -> copen (ct st) = false /\ regs st SFooter = None).

Lemma none_at_ext l a b : (forall s, In s l -> regs b s = regs a s) -> none_at l b = none_at l a.
Proof.
  unfold none_at. intros E. induction l as [|s r IH]; simpl; auto.
  rewrite (E s (or_introl eq_refl)). rewrite IH; auto. intros s' Hin. apply E. right. exact Hin.
Qed.
Lemma none_at_spec l st s : none_at l st = true -> In s l -> regs st s = None.
Proof.
  unfold none_at. rewrite forallb_forall. intros H Hin. specialize (H s Hin).
  destruct (regs st s); [discriminate|reflexivity].
Qed.
Lemma coll_slot_not_footer s : In s coll_slots -> slot_eqb SFooter s = false.
Proof. intros Hin. destruct s; [|reflexivity ..]. simpl in Hin. intuition discriminate. Qed.

Lemma Cinv_frame st st' : Rfr (fun _ => false) st st' -> Cinv st -> Cinv st'.
Proof.
  intros [E1 E2] C. unfold Cinv. rewrite E1, (none_at_ext coll_slots st st'), (E2 SFooter); auto.
Qed.

Lemma closed_noop o st st' :
  handle_op o = false -> close_op o = false ->
  copen (ct st) = false -> mph (ct st) = 0 -> pph (ct st) = 0 ->
  step o st = Some st' -> st' = st.
Proof.
  intros N1 N2 C M P H. apply finish_inv in H. destruct H as [H _].
  assert (B : body o st = Some st); [|congruence].
  destruct o; try discriminate N1; try discriminate N2; simpl;
    unfold op_snap_cached, op_snap_fresh, op_batch, op_drop_children, op_merger_ingest, op_merger_swap,
           op_merger_handover, op_persist_begin, op_persist_run, op_persist_publish, guard;
    rewrite ?C, ?M, ?P; simpl; reflexivity.
Qed.

(* the shape of both Close operations *)
Lemma close_inv (m : M) c f st st' : (m ;; check c ;; set_ctl f) st = Some st' ->
  exists s, m st = Some s /\ c s = true /\ st' = with_ct s (f (ct s)).
Proof.
  intros H. apply bind_inv in H. destruct H as [s [B H]]. exists s. split; auto.
  unfold bind, check, set_ctl in H. destruct (c s); [|discriminate]. inversion H. auto.
Qed.
Lemma coll_close_frame : sat (Rfr (fun _ => true)) coll_close_body.
Proof. unfold_ops. sat_go (Rfr_ok (fun _ => true)) fr_prim. Qed.
Lemma store_close_frame : sat (Rfr (slot_eqb SFooter)) store_close_body.
Proof. unfold_ops. sat_go (Rfr_ok (slot_eqb SFooter)) fr_prim. Qed.

Lemma step_Cinv o st st' : Cinv st -> step o st = Some st' -> Cinv st'.
Proof.
  intros C H.
  destruct (handle_op o) eqn:N1; [exact (Cinv_frame _ _ (handle_op_frame o N1 st st' H) C)|].
  destruct C as [C1 C2]. destruct (close_op o) eqn:N2.
  2:{ destruct (copen (ct st)) eqn:Co.
      - destruct (nonclose_frame o N2 st st' H) as [E1 E2]. split.
        + rewrite E1, Co. discriminate.
        + rewrite E2. intros S. destruct (C2 S) as [X _]. discriminate.
      - destruct (C1 eq_refl) as [M [P _]].
        rewrite (closed_noop o st st' N1 N2 Co M P H). unfold Cinv. rewrite Co. split; auto. }
  apply finish_inv in H. destruct H as [H _].
  destruct o; try discriminate N2; simpl in H; apply guard_inv in H;
    destruct H as [[G H]|[_ ->]]; try (split; assumption);
    apply close_inv in H; destruct H as [s1 [B [K ->]]].
  - (* collection Close: the control state is untouched until copen is reset *)
    apply andb_prop in G. destruct G as [G G3]. apply andb_prop in G. destruct G as [G1 G2].
    apply Nat.eqb_eq in G2, G3. destruct (coll_close_frame st s1 B) as [F1 _].
    split; simpl; rewrite F1; [auto|].
    intros S. destruct (C2 S) as [X _]. congruence.
  - (* store Close: only the store's footer slot is touched *)
    apply andb_prop in G. destruct G as [G1 G2]. apply negb_true_iff in G2.
    destruct (store_close_frame st s1 B) as [F1 F2]. destruct (C1 G2) as [M [P Q]].
    split; simpl; rewrite F1; intros _.
    + repeat split; auto. change (none_at coll_slots s1 = true). rewrite <- Q.
      apply none_at_ext. intros s Hin. apply F2, coll_slot_not_footer, Hin.
    + split; auto. apply (none_at_spec [SFooter] s1); simpl; auto.
Qed.

Lemma Cinv_init : Cinv init.
Proof. split; simpl; discriminate. Qed.

Lemma run_Cinv : forall ops st, run ops = Some st -> Cinv st.
Proof. intros ops st. exact (run_from_ind Cinv step_Cinv ops init st Cinv_init). Qed.

Lemma all_closed_no_roots st : Cinv st -> all_closed st -> hand st = [] -> leaked st = [] ->
  roots st = [].
Proof.
  intros [C1 C2] [H1 [H2 H3]] Hh Hl. destruct (C1 H2) as [_ [_ N]]. destruct (C2 H3) as [_ F].
  unfold roots. rewrite H1, Hh, Hl, root_of_none; [reflexivity|].
  intros s. destruct s; [exact F | apply (none_at_spec coll_slots st); [exact N | simpl; auto 10] ..].
Qed.

(* (4) once every handle, the collection and the store are closed, every
   count is zero: no footer, stack or wrapper is alive, every mapping is
   unmapped and every file descriptor is closed -- provided no reference was
   lost on the error return of startIterator *)
Lemma closed_all_released st :
  Inv st -> Cinv st -> hand st = [] -> all_closed st -> leaked st = [] ->
  (forall o, cnt_of (hp st) o = 0) /\ open_fds st = [] /\ mappings st = 0.
Proof.
  intros I C Hh AC L.
  assert (Z : forall o, cnt_of (hp st) o = 0).
  { apply no_roots_all_zero. rewrite <- (all_closed_no_roots st C AC Hh L). exact I. }
  split; [exact Z|].
  assert (Zo : forall ob, In ob (hp st) -> o_cnt ob = 0).
  { intros ob Hin. apply In_nth_error in Hin. destruct Hin as [o Ho].
    specialize (Z o). unfold cnt_of in Z. rewrite Ho in Z. exact Z. }
  clear - Zo. unfold open_fds, mappings. split.
  - induction (hp st) as [|ob r IH]; simpl; auto.
    rewrite (Zo ob (or_introl eq_refl)).
    rewrite IH by (intros; apply Zo; right; auto). destruct (o_kind ob); reflexivity.
  - induction (hp st) as [|ob r IH]; simpl; auto.
    rewrite (Zo ob (or_introl eq_refl)).
    destruct (o_kind ob); simpl; apply IH; intros; apply Zo; right; auto.
Qed.

Theorem all_closed_all_released : forall ops st,
  run ops = Some st -> all_closed st -> leaked st = [] ->
  (forall o, cnt_of (hp st) o = 0) /\ open_fds st = [] /\ mappings st = 0.
Proof.
  intros ops st H. apply closed_all_released;
    [exact (run_inv ops st H) | exact (run_Cinv ops st H) | exact (locals_released ops st H)].
Qed.

Corollary all_closed_all_released_no_error : forall ops st,
  forallb no_ll_error ops = true -> run ops = Some st -> all_closed st ->
  (forall o, cnt_of (hp st) o = 0) /\ open_fds st = [] /\ mappings st = 0.
Proof.
  intros ops st F H AC. eapply all_closed_all_released; eauto.
  eapply no_leak_without_error_return; eauto.
Qed.

(* (3) a released object is never revived: its count stays zero (AddRef
   refuses a dead object, DecRef of a dead object does not happen), so the
   references it held were given back exactly once, when its count reached
   zero (release_total), and it holds none afterwards *)

Definition omono (ob ob' : obj) : Prop :=
  o_kind ob' = o_kind ob /\ o_top ob' = o_top ob /\ o_file ob' = o_file ob /\ (o_cnt ob = 0 -> o_cnt ob' = 0).
Definition hmono : heap -> heap -> Prop := hrel omono.

Lemma omono_refl ob : omono ob ob.
Proof. unfold omono. auto. Qed.
Lemma omono_trans x y z : omono x y -> omono y z -> omono x z.
Proof. intros [A1 [A2 [A3 A4]]] [B1 [B2 [B3 B4]]]. repeat split; try congruence. auto. Qed.
Lemma hmono_refl h : hmono h h.
Proof. apply hrel_refl, omono_refl. Qed.
Lemma hmono_trans a b c : hmono a b -> hmono b c -> hmono a c.
Proof. apply hrel_trans, omono_trans. Qed.
Lemma hmono_upd h o ob ob' : nth_error h o = Some ob ->
  o_kind ob' = o_kind ob -> o_top ob' = o_top ob -> o_file ob' = o_file ob ->
  (o_cnt ob = 0 -> o_cnt ob' = 0) -> hmono h (upd o ob' h).
Proof. intros Ho K T F Z. apply hrel_upd with (ob := ob); unfold omono; auto. Qed.

Lemma release_mono fuel work h fs lg h' fs' lg' :
  release fuel work h fs lg = Some (h', fs', lg') -> hmono h h'.
Proof.
  intros H.
  refine (proj2 (release_hrel (fun _ => True) omono omono_refl omono_trans _ _ _ _ _ _ _ _ _ _ I H)).
  - intros _ o ob _ _ Ec. unfold omono. simpl. rewrite Ec. auto.
  - intros _ o ob n _ _ Ec. unfold omono. simpl. rewrite Ec. repeat split; auto; discriminate.
Qed.

Definition Rmono (a b : state) : Prop := hmono (hp a) (hp b).

Lemma Rmono_ok : PrimOK Rmono.
Proof.
  constructor; unfold Rmono, sat.
  - intros. apply hmono_refl.
  - intros a b c. apply hmono_trans.
  - intros o st st' H. unfold addref in H. prim_inv H. simpl. eapply hmono_upd; eauto. simpl. lia.
  - intros o st st' H. unfold decref in H.
    destruct (remove1 o (hand st)); [|discriminate].
    destruct (release _ _ _ _ _) as [[[h fs] lg]|] eqn:E; [|discriminate]. inversion H; subst. simpl.
    eapply release_mono; eauto.
  - intros k t rs ks f st st' H. unfold alloc in H. prim_inv H. simpl. apply hrel_snoc, omono_refl.
  - intros a rs st st' H. unfold setrefs in H. prim_inv H. simpl. eapply hmono_upd; eauto.
  - intros h st st' H. unfold pushh in H. prim_inv H. apply hmono_refl.
  - intros i st st' H. unfold poph in H. prim_inv H. apply hmono_refl.
  - intros o st st' H. unfold setrm in H. prim_inv H. simpl. eapply hmono_upd; eauto.
Qed.
Lemma step_mono o : sat Rmono (step o).
Proof. destruct o; unfold_ops; sat_go Rmono_ok ltac:(by_prim ltac:(apply hmono_refl)). Qed.

Lemma run_from_mono ops st st' : run_from st ops = Some st' -> hmono (hp st) (hp st').
Proof.
  apply (run_from_ind (fun s => hmono (hp st) (hp s))); [|apply hmono_refl].
  intros o s s' M H. exact (hmono_trans _ _ _ M (step_mono o s s' H)).
Qed.

Lemma dead_stays_dead st1 ops st2 : Inv st1 -> run_from st1 ops = Some st2 ->
  forall o ob, nth_error (hp st1) o = Some ob -> o_cnt ob = 0 ->
    exists ob', nth_error (hp st2) o = Some ob' /\ o_kind ob' = o_kind ob /\
                o_cnt ob' = 0 /\ o_refs ob' = [] /\ o_kids ob' = [].
Proof.
  intros I1 H o ob Ho Z.
  destruct (run_from_mono ops st1 st2 H o ob Ho) as [ob' [A [B [_ [_ C]]]]].
  exists ob'. repeat split; auto;
    apply (inv_dead_holds_nothing st2 (run_from_inv ops st1 st2 I1 H) o ob' A (C Z)).
Qed.
Theorem released_stays_released : forall ops1 ops2 st1 st2,
  run ops1 = Some st1 -> run_from st1 ops2 = Some st2 ->
  forall o ob, nth_error (hp st1) o = Some ob -> o_cnt ob = 0 ->
    exists ob', nth_error (hp st2) o = Some ob' /\ o_kind ob' = o_kind ob /\
                o_cnt ob' = 0 /\ o_refs ob' = [] /\ o_kids ob' = [].
Proof. intros ops1 ops2 st1 st2 H1. exact (dead_stays_dead st1 ops2 st2 (run_inv ops1 st1 H1)). Qed.

(* one DecRef (with its cascade) gives back exactly the reference it was asked
   to give back: the counting identity holds again without it *)
Theorem decref_gives_back_exactly_one : forall o st st',
  Inv st -> decref o st = Some st' ->
  forall x, cnt_of (hp st') x + (if Nat.eqb o x then 1 else 0) + cn x (allrefs (hp st))
            = cnt_of (hp st) x + cn x (allrefs (hp st')).
Proof.
  intros o st st' I H x. pose proof (pres_decref o st st' I H) as [A' _ _].
  destruct I as [A _ _]. specialize (A x). specialize (A' x).
  unfold decref in H. destruct (remove1 o (hand st)) as [l|] eqn:R; [|discriminate].
  destruct (release _ _ _ _ _) as [[[h fs] lg]|]; [|discriminate]. inversion H; subst; clear H.
  pose proof (remove1_cn _ _ _ R x) as Q. revert A A'. unfold roots. simpl.
  repeat rewrite cn_app. intros A A'. lia.
Qed.

(* the CURRENT code (repairs 75e1b64, 8951c44, 1882285): no operation loses a
   reference, so closing everything releases everything, unconditionally *)

Lemma current_no_ll_error o : current_code o = true -> no_ll_error o = true.
Proof. intros H. destruct o; try reflexivity; discriminate H. Qed.
Lemma forallb_impl {A} (p q : A -> bool) l :
  (forall a, p a = true -> q a = true) -> forallb p l = true -> forallb q l = true.
Proof. rewrite !forallb_forall. auto. Qed.

Theorem no_leak_in_current_code : forall ops st,
  forallb current_code ops = true -> run ops = Some st -> leaked st = [].
Proof.
  intros ops st F. apply no_leak_without_error_return.
  exact (forallb_impl _ _ ops current_no_ll_error F).
Qed.

Theorem all_closed_all_released_current_code : forall ops st,
  forallb current_code ops = true -> run ops = Some st -> all_closed st ->
  (forall o, cnt_of (hp st) o = 0) /\ open_fds st = [] /\ mappings st = 0.
Proof.
  intros ops st F. apply all_closed_all_released_no_error.
  exact (forallb_impl _ _ ops current_no_ll_error F).
Qed.

(* a heap iterator owns a counted reference on the stack it was started on
   (repair 75e1b64): the stack, its lower-level snapshot and everything below
   stay alive as long as the iterator is open, whatever is closed meanwhile *)
Theorem iterator_stack_alive : forall ops st, run ops = Some st ->
  forall s ll c, In (HIter (Some s) ll c) (handles st) ->
    cnt_of (hp st) s > 0 /\ forall o, reach (hp st) s o -> cnt_of (hp st) o > 0.
Proof.
  intros ops st H s ll c Hin.
  assert (A : forall o, reach (hp st) s o -> cnt_of (hp st) o > 0).
  { intros o. apply (handle_data_alive ops st H (HIter (Some s) ll c) s o Hin). left. reflexivity. }
  split; [apply A; constructor | exact A].
Qed.

Definition round (nc : bool) (m : pmode) (cache : bool) : list op :=
  [OpBatch nc; OpMergerIngest; OpMergerSwap BrMerged; OpMergerHandover;
   OpPersistBegin; OpPersistRun m; OpPersistPublish cache].

(* the history that broke the pre-repair iterator (R1 below): the snapshot is
   closed before its iterator and the cached copy invalidated; SeekTo then
   re-creates the cursors and keeps the lower-level cursor *)
Definition w_iter : list op :=
  round false (PAppend false 1 0) false ++
  [OpBatch false; OpSnapFresh; OpIterStart 0 IKHeap; OpCloseH 0; OpBatch false; OpIterSeek 0 SKLower].
Example iterator_keeps_lower_level :
  forallb current_code w_iter = true /\
  option_map (fun st => (handles st, borrow_safe_b st)) (run w_iter)
  = Some ([HIter (Some 10) (Some 7) None], true).
Proof. vm_compute. split; reflexivity. Qed.

(* what the code did NOT guarantee before the repairs (operations ..._pre_fix),
   and what the current code still does not (R2b) : witnesses *)

(* R1 (before 75e1b64). An iterator started on a collection snapshot kept only
   a BORROWED pointer to the snapshot's segmentStack (iterator.ss): it took no
   reference.  Once the snapshot handle is closed and the cached copy
   invalidated (any batch, merger cycle or persistence round), the stack is
   released while the open iterator still points to it. *)
Definition w_iter_pre_fix : list op :=
  round false (PAppend false 1 0) false ++
  [OpBatch false; OpSnapFresh; OpIterStart_pre_fix 0 IKHeap; OpCloseH 0; OpBatch false].

Theorem iterator_borrow_safe_refuted_pre_fix :
  exists ops st, forallb no_ll_error ops = true /\ run ops = Some st /\ ~ borrow_safe st.
Proof.
  exists w_iter_pre_fix. destruct (run w_iter_pre_fix) as [st|] eqn:E; [|vm_compute in E; discriminate].
  exists st. split; [reflexivity|]. split; [reflexivity|].
  intros B. assert (X : borrow_safe_b st = true).
  { unfold borrow_safe_b. apply forallb_forall. intros o Hin. apply Nat.ltb_lt. apply B. exact Hin. }
  revert X. vm_compute in E. inversion E; subst. vm_compute. discriminate.
Qed.

(* ... and what the code then did through that pointer: SeekTo restarting
   re-creates the cursors from iter.ss, whose lowerLevelSnapshot was set to nil
   by the release (segment_stack.go:55-58): the iterator silently lost its
   lower-level cursor although the store footer it was reading is still alive
   and current. *)
Theorem iterator_keeps_lower_level_refuted_pre_fix :
  exists ops st st' s f,
    run ops = Some st /\ nth_error (handles st) 0 = Some (HIter_pre_fix (Some s) (Some f) None) /\
    run (ops ++ [OpIterSeek_pre_fix 0]) = Some st' /\
    nth_error (handles st') 0 = Some (HIter_pre_fix (Some s) None None) /\
    regs st' SFooter = Some f /\ cnt_of (hp st') f > 0.
Proof.
  exists w_iter_pre_fix.
  destruct (run w_iter_pre_fix) as [st|] eqn:E; [|vm_compute in E; discriminate].
  destruct (run (w_iter_pre_fix ++ [OpIterSeek_pre_fix 0])) as [st'|] eqn:E'; [|vm_compute in E'; discriminate].
  exists st, st', 10, 7. vm_compute in E. inversion E; subst. vm_compute in E'. inversion E'; subst.
  repeat split; vm_compute; lia.
Qed.

(* R2. "Only the current data file remains" fails.
   (a) (before 1882285) data only in child collections, appended; then a full
       compaction: compactMaybe looked for the file to unlink through
       slocs[0].mref.fref of the TOP-LEVEL footer only, so the old file was
       never registered for removal. *)
Definition w_files_a_pre_fix : list op :=
  round true (PAppend false 0 1) false ++ round false PCompactFull_pre_fix false ++
  [OpCollClose; OpStoreClose].
Definition w_files_a : list op :=
  round true (PAppend false 0 1) false ++ round false PCompactFull false ++
  [OpCollClose; OpStoreClose].
(* (b) (CURRENT code, known finding F31) the only child collection holding data
       is dropped: the new footer has no segment at all, the file is closed
       and forgotten, the next round starts a new file. *)
Definition w_files_b : list op :=
  round true (PAppend false 0 1) false ++
  [OpDropChildren; OpMergerIngest; OpMergerSwap BrMerged; OpMergerHandover;
   OpPersistBegin; OpPersistRun (PAppend false 0 0); OpPersistPublish false] ++
  round false (PAppend false 1 0) false ++ [OpCollClose; OpStoreClose].

Definition stale_file (st : state) : Prop :=
  exists f, In f (files st) /\ cur (ct st) <> Some f.

Theorem only_current_file_refuted_pre_fix :
  exists st, forallb no_ll_error w_files_a_pre_fix = true /\ run w_files_a_pre_fix = Some st /\
             all_closed st /\ stale_file st.
Proof.
  destruct (run w_files_a_pre_fix) as [st|] eqn:E; [|vm_compute in E; discriminate].
  exists st. vm_compute in E. inversion E; subst.
  repeat split; try reflexivity. exists 1. split; [vm_compute; auto|vm_compute; discriminate].
Qed.

(* the same history on the current code leaves the current file only *)
Example only_current_file_witness_a_current_code :
  forallb current_code w_files_a = true /\
  option_map (fun st => (files st, cur (ct st), all_closed_b st)) (run w_files_a)
  = Some ([2], Some 2, true).
Proof. vm_compute. split; reflexivity. Qed.

(* NOT repaired: a refutation of the current code *)
Theorem only_current_file_refuted :
  exists st, forallb current_code w_files_b = true /\ run w_files_b = Some st /\
             all_closed st /\ stale_file st.
Proof.
  destruct (run w_files_b) as [st|] eqn:E; [|vm_compute in E; discriminate].
  exists st. vm_compute in E. inversion E; subst.
  repeat split; try reflexivity. exists 1. split; [vm_compute; auto|vm_compute; discriminate].
Qed.

(* R3 (before 8951c44). The error return of segmentStack.startIterator
   (lowerLevelIter.Current() failing, e.g. a merge operator that fails) dropped
   the lower-level iterator without Close(): its closer, one reference on the
   store footer, was never released. *)
Definition w_leak_pre_fix : list op :=
  round false (PAppend false 1 0) false ++
  [OpSnapFresh; OpIterStart_pre_fix 0 IKLLError; OpCloseH 0; OpCollClose; OpStoreClose].
Definition w_leak : list op :=
  round false (PAppend false 1 0) false ++
  [OpSnapFresh; OpIterStart 0 IKLLError; OpCloseH 0; OpCollClose; OpStoreClose].

Theorem all_released_with_error_return_refuted_pre_fix :
  exists st o, run w_leak_pre_fix = Some st /\ all_closed st /\
               cnt_of (hp st) o > 0 /\ open_fds st <> [] /\ mappings st > 0.
Proof.
  destruct (run w_leak_pre_fix) as [st|] eqn:E; [|vm_compute in E; discriminate].
  exists st, 7. vm_compute in E. inversion E; subst.
  repeat split; try reflexivity; vm_compute; try lia; discriminate.
Qed.

Example all_released_with_error_return_current_code :
  forallb current_code w_leak = true /\
  option_map (fun st => (all_closed_b st, leaked st, open_fds st, mappings st)) (run w_leak)
  = Some (true, [], [], 0).
Proof. vm_compute. split; reflexivity. Qed.

(* the persister's borrowed stackDirtyBase (persister.go:62) is safe: while
   the persister works on it the collection keeps it as m.stackDirtyBase *)

Definition Rp (tb : bool) (a b : state) : Prop :=
  pph (ct b) = pph (ct a) /\ pbase (ct b) = pbase (ct a) /\
  (tb = true -> regs b SBase = regs a SBase).

Lemma Rp_ok tb : PrimOK (Rp tb).
Proof.
  apply PrimOK_frame; unfold Rp.
  - auto.
  - intros a b c [H1 [H2 H3]] [H4 [H5 H6]]. repeat split; try congruence.
    intros T. rewrite H6, H3; auto.
  - intros a b -> -> _. auto.
Qed.
Ltac rp_prim := by_prim ltac:(repeat split; auto; try (intro; discriminate)).

Definition Pinv (st : state) : Prop :=
  (pph (ct st) = 0 -> pbase (ct st) = None) /\
  (pph (ct st) <> 0 -> pbase (ct st) = regs st SBase /\ is_some (pbase (ct st)) = true).

Lemma Pinv_keep st st' : Rp true st st' -> Pinv st -> Pinv st'.
Proof. intros [E1 [E2 E3]] P. unfold Pinv. rewrite E1, E2, E3; auto. Qed.
(* while the persister is idle the base may be moved *)
Lemma Pinv_idle st st' : Rp false st st' -> pph (ct st) = 0 -> Pinv st -> Pinv st'.
Proof.
  intros [E1 [E2 _]] Z [P1 _]. unfold Pinv. rewrite E1, E2. split; auto. intros X. contradiction.
Qed.

Definition pp_special (o : op) : bool :=
  match o with
  | OpPersistBegin | OpPersistRun _ | OpPersistPublish _ | OpMergerHandover | OpCollClose => true
  | _ => false
  end.
Lemma pp_frame o : pp_special o = false -> sat (Rp true) (step o).
Proof.
  intros N. destruct o; try discriminate N; unfold_ops; sat_go (Rp_ok true) rp_prim.
Qed.
Lemma pp_frame_idle o : o = OpMergerHandover \/ o = OpCollClose -> sat (Rp false) (body o).
Proof. intros [->| ->]; simpl; unfold_ops; sat_go (Rp_ok false) rp_prim. Qed.

Lemma step_Pinv o st st' : Pinv st -> step o st = Some st' -> Pinv st'.
Proof.
  intros P H. destruct (pp_special o) eqn:N; [|exact (Pinv_keep _ _ (pp_frame o N st st' H) P)].
  apply finish_inv in H. destruct H as [H _].
  destruct o; try discriminate N; simpl in H.
  - (* hand-over: a base is put only where there is none, and then the persister is idle *)
    destruct (regs st SBase) as [b0|] eqn:B.
    + assert (X : st' = st \/ st' = with_ct st (c_mph 0 (ct st))).
      { revert H. unfold op_merger_handover, guard. destruct (mph (ct st) =? 2).
        - unfold bind, rd, reg. rewrite B. destruct (regs st SMid); intros H; inversion H; auto.
        - intros H; inversion H; auto. }
      apply (Pinv_keep st); [|exact P]. destruct X as [-> | ->]; repeat split.
    + apply (Pinv_idle st st' (pp_frame_idle _ (or_introl eq_refl) st st' H)); [|exact P].
      destruct P as [_ P2]. destruct (pph (ct st)); [reflexivity|].
      destruct P2 as [E1 E2]; [discriminate|]. rewrite E1, B in E2. discriminate.
  - (* the persister takes the base *)
    apply guard_inv in H. destruct H as [[G H]|[_ ->]]; [|exact P].
    apply andb_prop in G. destruct G as [_ G]. inversion H; subst st'.
    split; simpl; [discriminate|auto].
  - (* Store.persist works on neither *)
    unfold op_persist_run in H. apply guard_inv in H. destruct H as [[G H]|[_ ->]]; [|exact P].
    apply andb_prop in G. destruct G as [G G3]. apply andb_prop in G. destruct G as [G1 _].
    apply Nat.eqb_eq in G1.
    unfold rd at 1 in H. destruct (reg SFooter st) as [f|]; [|discriminate G3]. simpl whenS in H.
    apply bind_inv in H. destruct H as [s1 [E H]]. inversion H; subst st'; clear H.
    assert (F : Rp true st s1).
    { refine ((_ : sat (Rp true) _) st s1 E). destruct m; unfold_ops; sat_go (Rp_ok true) rp_prim. }
    destruct F as [F1 [F2 F3]]. destruct P as [_ [E1 E2]]; [lia|].
    split; simpl; [discriminate|]. intros _. rewrite F2, F3; auto.
  - (* publish: the persister is idle again *)
    unfold op_persist_publish in H. apply guard_inv in H. destruct H as [[_ H]|[_ ->]]; [|exact P].
    apply bind_inv in H. destruct H as [s1 [_ H]].
    apply bind_inv in H. destruct H as [s2 [_ H]]. inversion H; subst.
    split; simpl; auto. intros X. contradiction.
  - (* collection Close waits for the persister *)
    destruct (pph (ct st)) eqn:Z.
    + exact (Pinv_idle st st' (pp_frame_idle _ (or_intror eq_refl) st st' H) Z P).
    + apply guard_inv in H. destruct H as [[G _]|[_ ->]]; [|exact P].
      rewrite Z, andb_false_r in G. discriminate.
Qed.

Lemma Pinv_init : Pinv init.
Proof. split; simpl; auto; intros X; contradiction. Qed.

Theorem persister_borrow_safe : forall ops st, run ops = Some st ->
  forall b, pbase (ct st) = Some b -> regs st SBase = Some b /\ cnt_of (hp st) b > 0.
Proof.
  intros ops st H b Hb.
  destruct (run_from_ind Pinv step_Pinv ops init st Pinv_init H) as [P1 P2].
  assert (N : pph (ct st) <> 0) by (intros Z; rewrite (P1 Z) in Hb; discriminate).
  destruct (P2 N) as [E _]. rewrite Hb in E. split; auto.
  apply (proj1 (no_dangling_reference ops st H)). unfold roots. apply in_or_app. left.
  apply (root_of_slot _ SBase). auto.
Qed.

(* the model against the implementation, STATIC part (the live tie is the
   director family "owners" with ocaml/ownersrun.ml over OwnersScenarios.v).
   These five traces were recorded BEFORE repairs 75e1b64 / 8951c44 / 1882285:
   scenario3 and scenario5, whose iterators hold a stack, use the ..._pre_fix
   operations; the others do not touch repaired code.  The reference-count events recorded
   from the real code (hook verifRef of /repo/verif_on.go, kind and count after
   each change, in order) for four scripted scenarios are, event for event,
   the events the model produces for the corresponding operation sequences *)

Definition ev_view (ops : list op) : option (list (kind * nat)) :=
  option_map (map (fun e => (fst (fst e), snd e))) (run_events ops).

(* two appended rounds (CompactionDisable); fresh and cached collection snapshot, store
   snapshot, iterator on the collection snapshot (everything persisted: the footer's own
   iterator is handed out); closes *)
Definition scenario1 : list op :=
  round false (PAppend false 1 0) false ++ round false (PAppend false 1 0) false ++
  [OpSnapFresh; OpSnapCached; OpStoreSnap; OpIterStart 0 IKLower;
   OpCloseH 3; OpCloseH 0; OpCloseH 0; OpCloseH 0; OpCollClose; OpStoreClose].
Definition recorded1 : list (kind * nat) :=
  [
   (KWrap, 2); (KStack, 0); (KWrap, 3); (KStack, 1); (KStack, 2); (KStack, 0); (KWrap, 2);
   (KStack, 1); (KWrap, 3); (KWrap, 2); (KFooter, 3); (KFooter, 2); (KFile, 2); (KFooter, 2);
   (KFooter, 1); (KFile, 1); (KStack, 0); (KWrap, 1); (KWrap, 0); (KFooter, 0); (KWrap, 2);
   (KStack, 0); (KWrap, 3); (KStack, 1); (KStack, 2); (KStack, 0); (KWrap, 2); (KStack, 1);
   (KWrap, 3); (KWrap, 2); (KFooter, 3); (KFile, 2); (KFooter, 2); (KMmap, 2); (KFile, 3);
   (KFooter, 2); (KFooter, 1); (KFile, 2); (KStack, 0); (KWrap, 1); (KWrap, 0); (KFooter, 0);
   (KMmap, 1); (KWrap, 2); (KStack, 2); (KStack, 3); (KFooter, 3); (KWrap, 3); (KFooter, 4);
   (KWrap, 2); (KFooter, 3); (KStack, 2); (KStack, 1); (KFooter, 2); (KStack, 0); (KWrap, 1);
   (KWrap, 0); (KFooter, 1); (KFooter, 0); (KMmap, 0); (KFile, 1); (KMmap, 0); (KFile, 0)
  ].
Example model_matches_recorded_trace1 : ev_view scenario1 = Some recorded1.
Proof. vm_compute. reflexivity. Qed.

(* a child collection, CompactionForce (every round compacts into a new file and unlinks
   the old one); store snapshot, its child snapshot, SnapshotPrevious (none), collection
   snapshot, its child snapshot, iterator on that; closes *)
Definition scenario2 : list op :=
  round true PCompactFull false ++ round false PCompactFull false ++
  [OpStoreSnap; OpChildSnap 0 0; OpPrev 0 false 0 0 0; OpSnapFresh; OpChildSnap 2 0;
   OpIterStart 3 IKLower; OpCloseH 4; OpCloseH 3; OpCloseH 2; OpCloseH 1; OpCloseH 0;
   OpCollClose; OpStoreClose].
Definition recorded2 : list (kind * nat) :=
  [
   (KWrap, 2); (KStack, 0); (KStack, 0); (KWrap, 3); (KStack, 1); (KStack, 2); (KStack, 0);
   (KWrap, 2); (KStack, 0); (KStack, 1); (KWrap, 3); (KWrap, 2); (KFooter, 3); (KFooter, 4);
   (KFile, 2); (KFile, 3); (KFooter, 3); (KFile, 2); (KFooter, 4); (KFooter, 3); (KFooter, 2);
   (KFooter, 1); (KFooter, 2); (KStack, 0); (KWrap, 1); (KStack, 0); (KWrap, 0); (KFooter, 0);
   (KWrap, 2); (KFooter, 2); (KStack, 0); (KStack, 0); (KWrap, 3); (KWrap, 2); (KStack, 1);
   (KStack, 2); (KStack, 0); (KWrap, 2); (KStack, 0); (KWrap, 1); (KStack, 1); (KWrap, 3);
   (KWrap, 2); (KFooter, 3); (KWrap, 0); (KFooter, 2); (KFooter, 3); (KFooter, 4); (KFile, 2);
   (KFile, 3); (KFooter, 3); (KFile, 2); (KFooter, 4); (KFooter, 3); (KFooter, 2);
   (KFooter, 1); (KFooter, 2); (KStack, 0); (KWrap, 1); (KStack, 0); (KWrap, 0); (KFooter, 1);
   (KWrap, 0); (KFooter, 0); (KMmap, 0); (KFile, 1); (KFooter, 0); (KMmap, 0); (KFile, 0);
   (KFooter, 3); (KFooter, 2); (KFooter, 4); (KFooter, 3); (KWrap, 2); (KFooter, 3);
   (KStack, 2); (KStack, 2); (KWrap, 2); (KFooter, 4); (KWrap, 1); (KFooter, 3); (KStack, 1);
   (KStack, 1); (KFooter, 2); (KFooter, 2); (KStack, 0); (KWrap, 1); (KStack, 0); (KWrap, 0);
   (KFooter, 1); (KWrap, 0); (KFooter, 1); (KFooter, 0); (KMmap, 0); (KFile, 1); (KFooter, 0);
   (KMmap, 0); (KFile, 0)
  ].
Example model_matches_recorded_trace2 : ev_view scenario2 = Some recorded2.
Proof. vm_compute. reflexivity. Qed.

(* CompactionAllow with CachePersisted: three appended rounds (compactMaybe declines), a
   partial compaction keeping the first segment location; heap iterator with a lower-level
   iterator, SeekTo backwards, snapshot closed before the iterator *)
Definition scenario3 : list op :=
  round false (PAppend true 1 0) true ++ round false (PAppend true 1 0) true ++
  round false (PAppend true 1 0) true ++ round false (PCompactPartial 1) true ++
  [OpSnapFresh; OpIterStart_pre_fix 0 IKHeap; OpIterSeek_pre_fix 1; OpCloseH 0; OpCloseH 0;
   OpCollClose; OpStoreClose].
Definition recorded3 : list (kind * nat) :=
  [
   (KWrap, 2); (KStack, 0); (KWrap, 3); (KStack, 1); (KStack, 2); (KStack, 0); (KWrap, 2);
   (KStack, 1); (KWrap, 3); (KWrap, 2); (KFooter, 3); (KFooter, 4); (KFooter, 3); (KFooter, 2);
   (KFooter, 3); (KFooter, 2); (KFile, 2); (KFooter, 2); (KFooter, 1); (KFile, 1); (KWrap, 1);
   (KWrap, 2); (KStack, 0); (KWrap, 3); (KStack, 1); (KStack, 2); (KStack, 0); (KWrap, 2);
   (KStack, 1); (KWrap, 3); (KWrap, 2); (KFooter, 3); (KFooter, 4); (KFooter, 3); (KFooter, 2);
   (KFooter, 3); (KFile, 2); (KFooter, 2); (KMmap, 2); (KFile, 3); (KFooter, 2); (KFooter, 1);
   (KFile, 2); (KStack, 0); (KWrap, 0); (KFooter, 0); (KWrap, 1); (KWrap, 2); (KStack, 0);
   (KWrap, 3); (KStack, 1); (KStack, 2); (KStack, 0); (KWrap, 2); (KStack, 1); (KWrap, 3);
   (KWrap, 2); (KFooter, 3); (KFooter, 4); (KFooter, 3); (KFooter, 2); (KFooter, 3);
   (KFile, 3); (KFooter, 2); (KMmap, 3); (KMmap, 2); (KFile, 4); (KFooter, 2); (KFooter, 1);
   (KFile, 3); (KStack, 0); (KWrap, 0); (KFooter, 0); (KMmap, 2); (KWrap, 1); (KWrap, 2);
   (KStack, 0); (KWrap, 3); (KStack, 1); (KStack, 2); (KStack, 0); (KWrap, 2); (KStack, 1);
   (KWrap, 3); (KWrap, 2); (KFooter, 3); (KFooter, 4); (KFooter, 5); (KFile, 4); (KFooter, 4);
   (KMmap, 3); (KFile, 5); (KFooter, 3); (KFile, 4); (KFooter, 4); (KFooter, 3); (KFooter, 2);
   (KFooter, 1); (KFooter, 2); (KStack, 0); (KWrap, 0); (KFooter, 0); (KMmap, 2); (KMmap, 1);
   (KWrap, 1); (KWrap, 2); (KStack, 2); (KWrap, 3); (KFooter, 3); (KWrap, 2); (KWrap, 3);
   (KFooter, 4); (KWrap, 2); (KFooter, 3); (KStack, 1); (KFooter, 2); (KStack, 0); (KWrap, 1);
   (KWrap, 0); (KFooter, 1); (KStack, 0); (KWrap, 0); (KFooter, 0); (KMmap, 1); (KMmap, 0);
   (KFile, 3); (KMmap, 0); (KFile, 2); (KFooter, 0); (KMmap, 0); (KFile, 1); (KMmap, 0);
   (KFile, 0)
  ].
Example model_matches_recorded_trace3 : ev_view scenario3 = Some recorded3.
Proof. vm_compute. reflexivity. Qed.

(* a child collection dropped and recreated while the persister is parked (VerifGate) at
   persister:begin of the round that persists the drop: the merger and a user snapshot see
   the prior incarnation in the lower level (childFooter.Close()), the empty-mid branch of
   mergerMain, the merger's reference on the base, the child refresh at hand-over *)
Definition scenario4 : list op :=
  round true (PAppend false 1 1) false ++
  [OpDropChildren; OpMergerIngest; OpMergerSwap BrEmpty; OpMergerHandover; OpPersistBegin;
   OpBatch true; OpMergerIngest; OpMergerSwap BrMerged; OpMergerHandover;
   OpSnapFresh;
   OpPersistRun (PAppend false 0 0); OpPersistPublish false;
   OpMergerIngest; OpMergerSwap BrMerged; OpMergerHandover; OpPersistBegin;
   OpPersistRun (PAppend false 0 1); OpPersistPublish false;
   OpCloseH 0; OpCollClose; OpStoreClose].
Definition recorded4 : list (kind * nat) :=
  [
   (KWrap, 2); (KStack, 0); (KStack, 0); (KWrap, 3); (KStack, 1); (KStack, 2); (KStack, 0);
   (KWrap, 2); (KStack, 0); (KStack, 1); (KWrap, 3); (KWrap, 2); (KFooter, 3); (KFooter, 2);
   (KFile, 2); (KFile, 3); (KFooter, 2); (KFooter, 1); (KFile, 2); (KStack, 0); (KWrap, 1);
   (KStack, 0); (KWrap, 0); (KFooter, 0); (KWrap, 2); (KStack, 0); (KStack, 3); (KStack, 2);
   (KStack, 1); (KWrap, 3); (KWrap, 2); (KWrap, 3); (KFooter, 2); (KFooter, 1); (KStack, 2);
   (KStack, 0); (KStack, 0); (KWrap, 4); (KStack, 1); (KStack, 2); (KStack, 0); (KWrap, 3);
   (KStack, 0); (KStack, 1); (KStack, 1); (KWrap, 4); (KFooter, 2); (KFooter, 1); (KStack, 2);
   (KFooter, 3); (KFile, 3); (KFooter, 2); (KMmap, 2); (KFooter, 2); (KFooter, 1); (KFile, 2);
   (KStack, 1); (KStack, 0); (KWrap, 3); (KWrap, 2); (KWrap, 2); (KStack, 0); (KWrap, 1);
   (KStack, 0); (KWrap, 3); (KStack, 1); (KStack, 2); (KStack, 0); (KWrap, 2); (KStack, 0);
   (KStack, 1); (KWrap, 3); (KWrap, 2); (KFooter, 3); (KFile, 3); (KFooter, 2); (KFile, 4);
   (KMmap, 3); (KFooter, 2); (KFooter, 1); (KFile, 3); (KStack, 0); (KWrap, 1); (KStack, 0);
   (KWrap, 0); (KFooter, 0); (KMmap, 2); (KStack, 0); (KWrap, 0); (KFooter, 0); (KMmap, 1);
   (KFooter, 0); (KMmap, 0); (KFile, 2); (KStack, 0); (KWrap, 0); (KFooter, 1); (KFooter, 0);
   (KMmap, 0); (KFile, 1); (KFooter, 0); (KMmap, 0); (KFile, 0)
  ].
Example model_matches_recorded_trace4 : ev_view scenario4 = Some recorded4.
Proof. vm_compute. reflexivity. Qed.

(* history walk (SnapshotPrevious finding a footer, then none), Collection.Get reaching
   the lower level, iterators with SkipLowerLevel and with a lower-level iterator that is
   done at once, an idle merger cycle (NotifyMerger) handing an empty stack to the
   persister, which just takes a store snapshot *)
Definition scenario5 : list op :=
  round false (PAppend false 1 0) false ++ round false (PAppend false 1 0) false ++
  [OpStoreSnap; OpPrev 0 true 1 0 0; OpPrev 1 false 0 0 0; OpCollGet true; OpSnapFresh;
   OpIterStart_pre_fix 2 IKSkipLL; OpIterStart_pre_fix 2 IKLLDone;
   OpMergerIngest; OpMergerSwap BrEmpty; OpMergerHandover; OpPersistBegin;
   OpPersistRun (PAppend false 0 0); OpPersistPublish false;
   OpCloseH 4; OpCloseH 3; OpCloseH 2; OpCloseH 1; OpCloseH 0; OpCollClose; OpStoreClose].
Definition recorded5 : list (kind * nat) :=
  [
   (KWrap, 2); (KStack, 0); (KWrap, 3); (KStack, 1); (KStack, 2); (KStack, 0); (KWrap, 2);
   (KStack, 1); (KWrap, 3); (KWrap, 2); (KFooter, 3); (KFooter, 2); (KFile, 2); (KFooter, 2);
   (KFooter, 1); (KFile, 1); (KStack, 0); (KWrap, 1); (KWrap, 0); (KFooter, 0); (KWrap, 2);
   (KStack, 0); (KWrap, 3); (KStack, 1); (KStack, 2); (KStack, 0); (KWrap, 2); (KStack, 1);
   (KWrap, 3); (KWrap, 2); (KFooter, 3); (KFile, 2); (KFooter, 2); (KMmap, 2); (KFile, 3);
   (KFooter, 2); (KFooter, 1); (KFile, 2); (KStack, 0); (KWrap, 1); (KWrap, 0); (KFooter, 0);
   (KMmap, 1); (KFooter, 3); (KFooter, 4); (KFile, 3); (KFooter, 3); (KFooter, 2);
   (KFooter, 1); (KWrap, 2); (KFooter, 4); (KFooter, 3); (KWrap, 1); (KWrap, 2); (KStack, 2);
   (KWrap, 3); (KFooter, 4); (KWrap, 2); (KFooter, 3); (KWrap, 3); (KStack, 1); (KStack, 3);
   (KStack, 2); (KStack, 1); (KWrap, 4); (KWrap, 3); (KFooter, 4); (KStack, 0); (KWrap, 2);
   (KWrap, 1); (KStack, 0); (KWrap, 0); (KFooter, 3); (KFooter, 0); (KMmap, 0); (KFile, 2);
   (KFooter, 2); (KWrap, 0); (KFooter, 1); (KFooter, 0); (KMmap, 0); (KFile, 1); (KMmap, 0);
   (KFile, 0)
  ].
Example model_matches_recorded_trace5 : ev_view scenario5 = Some recorded5.
Proof. vm_compute. reflexivity. Qed.

(* the model never gets stuck (a primitive refusing: AddRef or DecRef of a
   released object, a reference given back that the function does not hold, a
   slot overwritten, a local left over): checked exhaustively for every
   sequence of up to 4 operations over a concrete alphabet from the initial
   state, every sequence of up to 3 operations from states in the middle of
   five recorded histories, every sequence of up to 2 operations from the end
   states of 60 pseudo-random histories of 120 operations, and 600 pseudo-random
   histories of 300 operations (merger and persister steps weighted up).
   PARTIAL: a bounded check, not a proof for all sequences; the theorems above
   are stated for the sequences on which run succeeds.  For the operations of the
   CURRENT code the proof for all sequences is in OwnersProgressFacts.v
   (legal_use_never_faults); this check also covers the pre-repair operations. *)

Definition alphabet : list op :=
  [OpSnapCached; OpSnapFresh; OpCollGet true; OpChildSnap 0 0; OpChildSnap 1 0; OpChildSnap 2 1;
   OpStoreSnap; OpPrev 0 true 1 1 1; OpPrev 1 true 2 0 0; OpPrev 2 false 0 0 0;
   OpIterStart 0 IKHeap; OpIterStart 0 IKLower; OpIterStart 1 IKSkipLL; OpIterStart 1 IKLLDone;
   OpIterStart 0 IKLLError; OpIterStart 2 IKHeap;
   OpIterSeek 0 SKLower; OpIterSeek 1 SKLower; OpIterSeek 2 SKSkipLL; OpIterSeek 3 SKLLDone;
   OpCloseH 0; OpCloseH 1; OpCloseH 2;
   OpBatch false; OpBatch true; OpDropChildren;
   OpMergerIngest; OpMergerSwap BrMerged; OpMergerSwap BrEmpty; OpMergerSwap BrError;
   OpMergerHandover;
   OpPersistBegin; OpPersistRun PClean; OpPersistRun (PAppend true 1 1);
   OpPersistRun (PAppend false 0 1); OpPersistRun (PAppend false 0 0);
   OpPersistRun (PAppend false 2 0); OpPersistRun PCompactFull;
   OpPersistRun (PCompactPartial 1);
   OpPersistPublish true; OpPersistPublish false; OpCollClose; OpStoreClose].
Definition alphabet_open : list op := firstn 41 alphabet.   (* without the two Close *)

Fixpoint explore (depth : nat) (st : state) : bool :=
  match depth with
  | 0 => true
  | S d => forallb (fun o => match step o st with
                             | Some st' => explore d st'
                             | None => false end) alphabet
  end.

From Coq Require Import NArith.
Definition lcg (x : N) : N := ((x * 1103515245 + 12345) mod 2147483648)%N.
Fixpoint rand_run (al : list op) (n : nat) (x : N) (st : state) : option state :=
  match n with
  | O => Some st
  | S n' => let x' := lcg x in
            match step (nth (N.to_nat ((x' / 65536) mod (N.of_nat (length al)))%N) al OpStoreSnap) st with
            | Some st' => rand_run al n' x' st'
            | None => None
            end
  end.
Fixpoint seeds (k : nat) (x : N) : list N :=
  match k with O => [] | S k' => x :: seeds k' (x + 7919)%N end.
Definition is_ok {A} (x : option A) : bool := match x with Some _ => true | None => false end.

Definition busy0 : list op :=
  [OpBatch false; OpBatch true; OpMergerIngest; OpMergerSwap BrMerged; OpMergerHandover;
   OpPersistBegin; OpPersistRun (PAppend true 1 1); OpPersistRun (PAppend false 0 1);
   OpPersistRun PCompactFull; OpPersistRun (PCompactPartial 1);
   OpPersistPublish true; OpPersistPublish false].
Definition alphabet_busy : list op := alphabet_open ++ busy0 ++ busy0.

Theorem no_fault_bounded_partial :
  explore 4 init = true /\
  forallb (fun sc => match run (firstn 12 sc) with Some st => explore 3 st | None => false end)
          [scenario1; scenario2; scenario3; scenario4; scenario5] = true /\
  forallb (fun sc => match run (firstn 25 sc) with Some st => explore 3 st | None => false end)
          [scenario2; scenario3; scenario4] = true /\
  forallb (fun s => match rand_run alphabet_busy 120 s init with
                    | Some st => explore 2 st | None => false end) (seeds 60 1%N) = true /\
  forallb (fun s => is_ok (rand_run alphabet_busy 300 s init)) (seeds 300 1%N) = true /\
  forallb (fun s => match rand_run alphabet_busy 200 s init with
                    | Some st => is_ok (rand_run alphabet 100 s st) | None => false end)
          (seeds 300 5%N) = true.
Proof. vm_compute. repeat split. Qed.


(* the positive side of "only the current data file remains", PARTIAL (bounded):
   in histories where every appended round writes at least one top-level
   segment (so that every store footer since the first file has a top-level
   segment location) and startIterator never takes its error return, closing
   everything leaves at most the current data file.  Checked on 300
   pseudo-random histories of 300 operations followed by closing everything;
   not proved for all histories. *)
Definition alphabet_top : list op :=
  [OpSnapCached; OpSnapFresh; OpCollGet true; OpChildSnap 0 0; OpChildSnap 1 0; OpChildSnap 2 1;
   OpStoreSnap; OpPrev 0 true 1 1 1; OpPrev 1 true 2 0 0; OpPrev 2 false 0 0 0;
   OpIterStart 0 IKHeap; OpIterStart 0 IKLower; OpIterStart 1 IKSkipLL; OpIterStart 1 IKLLDone;
   OpIterStart 2 IKHeap;
   OpIterSeek 0 SKLower; OpIterSeek 1 SKLower; OpIterSeek 2 SKSkipLL; OpIterSeek 3 SKLLDone;
   OpCloseH 0; OpCloseH 1; OpCloseH 2;
   OpBatch false; OpBatch true; OpDropChildren;
   OpMergerIngest; OpMergerSwap BrMerged; OpMergerSwap BrEmpty; OpMergerSwap BrError;
   OpMergerHandover;
   OpPersistBegin; OpPersistRun PClean; OpPersistRun (PAppend true 1 1);
   OpPersistRun (PAppend false 1 0); OpPersistRun (PAppend false 2 0);
   OpPersistRun PCompactFull; OpPersistRun (PCompactPartial 1);
   OpPersistPublish true; OpPersistPublish false].
Definition busy : list op :=
  [OpBatch false; OpMergerIngest; OpMergerSwap BrMerged; OpMergerHandover; OpPersistBegin;
   OpPersistRun (PAppend true 1 1); OpPersistRun PCompactFull; OpPersistRun (PCompactPartial 1);
   OpPersistPublish true; OpPersistPublish false].
Definition alphabet_top_busy : list op := alphabet_top ++ busy ++ busy ++ busy.
Definition closing : list op :=
  [OpMergerSwap BrMerged; OpMergerHandover; OpPersistRun (PAppend false 1 0);
   OpPersistPublish false] ++ repeat (OpCloseH 0) 60 ++ [OpCollClose; OpStoreClose].
Definition files_ok (st : state) : bool :=
  all_closed_b st
  && forallb (fun f => match cur (ct st) with Some c => Nat.eqb f c | None => false end) (files st)
  && Nat.leb (length (files st)) 1
  && forallb (fun ob => Nat.eqb (o_cnt ob) 0) (hp st).

Theorem only_current_file_bounded_partial :
  forallb (fun s => match rand_run alphabet_top_busy 300 s init with
                    | Some st => match run_from st closing with
                                 | Some st' => files_ok st' | None => false end
                    | None => false end) (seeds 300 3%N) = true.
Proof. vm_compute. reflexivity. Qed.

Print Assumptions ownership_invariant.
Print Assumptions locals_released.
Print Assumptions no_dangling_reference.
Print Assumptions released_objects_hold_nothing.
Print Assumptions handle_data_alive.
Print Assumptions released_stays_released.
Print Assumptions decref_gives_back_exactly_one.
Print Assumptions decref_of_held_reference_succeeds.
Print Assumptions addref_of_referenced_object_succeeds.
Print Assumptions all_closed_all_released.
Print Assumptions all_closed_all_released_no_error.
Print Assumptions no_leak_without_error_return.
Print Assumptions persister_borrow_safe.
Print Assumptions no_leak_in_current_code.
Print Assumptions all_closed_all_released_current_code.
Print Assumptions iterator_stack_alive.
Print Assumptions iterator_keeps_lower_level.
Print Assumptions iterator_borrow_safe_refuted_pre_fix.
Print Assumptions iterator_keeps_lower_level_refuted_pre_fix.
Print Assumptions only_current_file_refuted_pre_fix.
Print Assumptions only_current_file_witness_a_current_code.
Print Assumptions only_current_file_refuted.
Print Assumptions all_released_with_error_return_refuted_pre_fix.
Print Assumptions all_released_with_error_return_current_code.
Print Assumptions model_matches_recorded_trace1.
Print Assumptions model_matches_recorded_trace2.
Print Assumptions model_matches_recorded_trace3.
Print Assumptions model_matches_recorded_trace4.
Print Assumptions model_matches_recorded_trace5.
Print Assumptions no_fault_bounded_partial.
Print Assumptions only_current_file_bounded_partial.
