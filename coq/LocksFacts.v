(* C17 -- proofs: the locking discipline implies data-race freedom. *)

From Coq Require Import List Arith Bool Sumbool Lia Relations.
Import ListNotations.
From Moss Require Import ListFacts Locks.

Lemma state_at_S : forall tr k e,
  nth_error tr k = Some e ->
  state_at tr (S k) = step (state_at tr k) e.
Proof. intros tr k e H. unfold state_at. now rewrite (firstn_S_snoc _ _ _ H), fold_left_app. Qed.

Lemma state_at_beyond : forall tr k,
  nth_error tr k = None -> state_at tr (S k) = state_at tr k.
Proof.
  intros tr k H. unfold state_at. apply nth_error_None in H. now rewrite !(firstn_all2 tr) by lia.
Qed.

Lemma wf_from_enabled : forall tr s k e,
  wf_from s tr = true ->
  nth_error tr k = Some e ->
  enabled (fold_left step (firstn k tr) s) e = true.
Proof.
  induction tr as [|e0 tr IH]; intros s k e Hwf H.
  - destruct k; discriminate.
  - simpl in Hwf. apply andb_true_iff in Hwf. destruct Hwf as [He Hwf].
    destruct k as [|k].
    + simpl in H. inversion H; subst. exact He.
    + simpl in H. simpl. apply IH; assumption.
Qed.

Lemma wf_enabled_at : forall tr k e,
  wf_exec tr -> nth_error tr k = Some e ->
  enabled (state_at tr k) e = true.
Proof. intros. unfold state_at. apply wf_from_enabled; assumption. Qed.

Lemma first_change : forall (P Q : mstate -> Prop) tr,
  (forall s, {P s} + {Q s}) -> (forall s, P s -> Q s -> False) ->
  forall d i, P (state_at tr i) -> Q (state_at tr (i + d)) ->
  exists r e, i <= r /\ r < i + d /\ nth_error tr r = Some e /\
              P (state_at tr r) /\ Q (step (state_at tr r) e).
Proof.
  intros P Q tr dec excl. induction d as [|d IH]; intros i Hi Hj.
  - rewrite Nat.add_0_r in Hj. destruct (excl _ Hi Hj).
  - replace (i + S d) with (S (i + d)) in Hj by lia.
    destruct (dec (state_at tr (i + d))) as [Hp|Hq].
    + destruct (nth_error tr (i + d)) as [e|] eqn:He.
      * rewrite (state_at_S _ _ _ He) in Hj. exists (i + d), e. repeat split; auto; lia.
      * rewrite (state_at_beyond _ _ He) in Hj. destruct (excl _ Hp Hj).
    + destruct (IH i Hi Hq) as (r & e & H1 & H2 & H). exists r, e. split; [exact H1|split; [lia|exact H]].
Qed.

Lemma holder_step : forall s e m,
  holder (step s e) m =
  match e with
  | Acq t m' => if Nat.eqb m m' then Some t else holder s m
  | Rel _ m' => if Nat.eqb m m' then None else holder s m
  | _ => holder s m
  end.
Proof. intros s e m. destruct e; reflexivity. Qed.

Lemma option_thread_dec : forall a b : option thread, {a = b} + {a <> b}.
Proof. decide equality. apply Nat.eq_dec. Qed.

(* A lock becomes held by [u] only through an acquire by [u]. *)
Lemma acquire_needed : forall tr m u d i,
  holder (state_at tr i) m <> Some u ->
  holder (state_at tr (i + d)) m = Some u ->
  exists b, i <= b /\ b < i + d /\ nth_error tr b = Some (Acq u m).
Proof.
  intros tr m u d i Hi Hj.
  destruct (first_change (fun s => holder s m <> Some u) (fun s => holder s m = Some u) tr
              (fun s => sumbool_not _ _ (option_thread_dec _ _)) (fun s p q => p q) d i Hi Hj)
    as (b & e & H1 & H2 & He & Hp & Hq).
  exists b. repeat split; trivial. rewrite holder_step in Hq.
  destruct e as [t m'|t m'| | |]; try contradiction;
    destruct (Nat.eqb_spec m m') as [<-|]; try contradiction; congruence.
Qed.

(* In a well-formed trace a lock held by [t] stops being held by [t] only
   through a release by [t]. *)
Lemma release_needed : forall tr m t,
  wf_exec tr ->
  forall d i,
  holder (state_at tr i) m = Some t ->
  holder (state_at tr (i + d)) m <> Some t ->
  exists r, i <= r /\ r < i + d /\ nth_error tr r = Some (Rel t m).
Proof.
  intros tr m t Hwf d i Hi Hj.
  destruct (first_change (fun s => holder s m = Some t) (fun s => holder s m <> Some t) tr
              (fun s => option_thread_dec _ _) (fun s p q => q p) d i Hi Hj)
    as (r & e & H1 & H2 & He & Hp & Hq).
  exists r. repeat split; trivial. rewrite holder_step in Hq.
  pose proof (wf_enabled_at _ _ _ Hwf He) as Hen.
  destruct e as [t' m'|t' m'| | |]; try contradiction;
    destruct (Nat.eqb_spec m m') as [<-|]; try contradiction; simpl in Hen; rewrite Hp in Hen.
  - discriminate.
  - apply Nat.eqb_eq in Hen. now subst t'.
Qed.

(* Two critical sections of the same mutex by different threads: the
   earlier one is left, and then the later one entered, in between. *)
Lemma mutual_exclusion : forall tr m t u i j,
  wf_exec tr ->
  holds tr i t m -> holds tr j u m -> t <> u -> i < j ->
  exists r b, i <= r /\ r < b /\ b < j /\
              nth_error tr r = Some (Rel t m) /\
              nth_error tr b = Some (Acq u m).
Proof.
  unfold holds. intros tr m t u i j Hwf Hi Hj Htu Hij.
  assert (Hne : holder (state_at tr (i + (j - i))) m <> Some t).
  { replace (i + (j - i)) with j by lia. rewrite Hj. intro H. inversion H. congruence. }
  destruct (release_needed tr m t Hwf (j - i) i Hi Hne) as [r [Hr1 [Hr2 Hr3]]].
  assert (Hfree : holder (state_at tr (S r)) m <> Some u).
  { rewrite (state_at_S _ _ _ Hr3), holder_step, Nat.eqb_refl. discriminate. }
  assert (Hj' : holder (state_at tr (S r + (j - S r))) m = Some u).
  { replace (S r + (j - S r)) with j by lia. exact Hj. }
  destruct (acquire_needed tr m u (j - S r) (S r) Hfree Hj') as [b [Hb1 [Hb2 Hb3]]].
  exists r, b. repeat split; try lia; assumption.
Qed.

Lemma seen_step : forall s e c,
  seen s c = true -> seen (step s e) c = true.
Proof.
  intros s e c H.
  assert (G : upd (seen s) (thread_of e) true c = true).
  { unfold upd. destruct (Nat.eqb c (thread_of e)); [reflexivity|exact H]. }
  destruct e; simpl; exact G.
Qed.

Lemma seen_step_self : forall s e, seen (step s e) (thread_of e) = true.
Proof.
  intros s e.
  assert (G : upd (seen s) (thread_of e) true (thread_of e) = true)
    by (unfold upd; now rewrite Nat.eqb_refl).
  destruct e; simpl in *; exact G.
Qed.

Lemma seen_mono : forall tr c d i,
  seen (state_at tr i) c = true -> seen (state_at tr (i + d)) c = true.
Proof.
  intros tr c. induction d as [|d IH]; intros i H.
  - rewrite Nat.add_0_r. exact H.
  - replace (i + S d) with (S (i + d)) by lia.
    destruct (nth_error tr (i + d)) as [e|] eqn:He.
    + rewrite (state_at_S _ _ _ He). apply seen_step. apply IH. exact H.
    + rewrite (state_at_beyond _ _ He). apply IH. exact H.
Qed.

(* Every event of a forked thread comes after its fork. *)
Lemma fork_before_child : forall tr k t c j e,
  wf_exec tr ->
  nth_error tr k = Some (Fork t c) ->
  nth_error tr j = Some e -> thread_of e = c ->
  k < j.
Proof.
  intros tr k t c j e Hwf Hk Hj Hc.
  pose proof (wf_enabled_at _ _ _ Hwf Hk) as Hen. simpl in Hen.
  apply andb_true_iff in Hen. destruct Hen as [Hns Hne].
  apply negb_true_iff in Hns. apply negb_true_iff in Hne.
  apply Nat.eqb_neq in Hne.
  destruct (lt_eq_lt_dec j k) as [[Hlt|Heq]|Hgt].
  - exfalso.
    assert (Hs : seen (state_at tr (S j)) c = true).
    { rewrite (state_at_S _ _ _ Hj). rewrite <- Hc. apply seen_step_self. }
    pose proof (seen_mono tr c (k - S j) (S j) Hs) as Hm.
    replace (S j + (k - S j)) with k in Hm by lia.
    rewrite Hm in Hns. discriminate.
  - exfalso. subst j. rewrite Hk in Hj. inversion Hj; subst e.
    simpl in Hc. apply Hne. exact Hc.
  - exact Hgt.
Qed.

Lemma exists_first : forall tr c j e,
  nth_error tr j = Some e -> thread_of e = c ->
  exists f, f <= j /\ first_of tr c f.
Proof.
  induction tr as [|a tr IH]; intros c j e Hj Hc; [destruct j; discriminate|].
  destruct (Nat.eq_dec (thread_of a) c) as [Ha|Ha].
  - exists 0. split; [lia|]. split; [exists a; auto|]. intros k e' Hk. lia.
  - destruct j as [|j]; [simpl in Hj; congruence|].
    destruct (IH c j e Hj Hc) as (f & Hf & (ef & Hef & Hefc) & Hmin).
    exists (S f). split; [lia|]. split; [exists ef; auto|].
    intros [|k] e' Hk He'; simpl in He'; [congruence|]. apply (Hmin k); [lia|assumption].
Qed.

(* In a well-formed trace a fork happens before every event of the child
   (fork -> first event of the child -> program order). *)
Lemma hb_fork_any : forall tr k t c j e,
  wf_exec tr ->
  nth_error tr k = Some (Fork t c) ->
  nth_error tr j = Some e -> thread_of e = c ->
  hb tr k j.
Proof.
  intros tr k t c j e Hwf Hk Hj Hc.
  destruct (exists_first tr c j e Hj Hc) as [f [Hfj Hf]].
  pose proof Hf as [[ef [Hef Hefc]] _].
  pose proof (fork_before_child tr k t c f ef Hwf Hk Hef Hefc) as Hkf.
  assert (H1 : hb tr k f).
  { apply t_step. eapply hb_fork; eassumption. }
  destruct (Nat.eq_dec f j) as [->|Hne].
  - exact H1.
  - eapply t_trans; [exact H1|].
    apply t_step. eapply hb_po with (e1 := ef) (e2 := e); try eassumption; try lia.
    all: congruence.
Qed.

Lemma hb1_lt : forall tr i j, hb1 tr i j -> i < j.
Proof. intros tr i j H. destruct H; assumption. Qed.

Lemma hb_lt : forall tr i j, hb tr i j -> i < j.
Proof.
  intros tr i j H. induction H as [i j H|i k j _ IH1 _ IH2].
  - eapply hb1_lt; eassumption.
  - lia.
Qed.

Lemma thread_of_access : forall (w : bool) t x, thread_of (if w then Wr t x else Rd t x) = t.
Proof. now destruct w. Qed.

Lemma access_thread : forall tr i t x w e,
  access_at tr i t x w -> nth_error tr i = Some e -> thread_of e = t.
Proof.
  unfold access_at. intros tr i t x w e H He. rewrite H in He.
  injection He as <-. apply thread_of_access.
Qed.

(* Two accesses to a covered location by different threads, the first one
   earlier in the trace, are ordered by happens-before. *)
Lemma ordered_forward : forall guard tr,
  wf_exec tr -> disciplined guard tr ->
  forall x m i j ti tj wi wj,
    guard x = Some m ->
    access_at tr i ti x wi -> access_at tr j tj x wj ->
    ti <> tj -> i < j ->
    hb tr i j.
Proof.
  intros guard tr Hwf Hd x m i j ti tj wi wj Hg Hi Hj Hne Hij.
  destruct (Hd i ti x wi m Hi Hg) as [Hhi|Hpi].
  - destruct (Hd j tj x wj m Hj Hg) as [Hhj|Hpj].
    + (* both hold the mutex *)
      destruct (mutual_exclusion tr m ti tj i j Hwf Hhi Hhj Hne Hij)
        as [r [b [Hir [Hrb [Hbj [Hr Hb]]]]]].
      assert (Hir' : i < r).
      { destruct (Nat.eq_dec i r) as [->|]; [|lia].
        unfold access_at in Hi. rewrite Hr in Hi. destruct wi; discriminate. }
      eapply t_trans; [apply t_step, (hb_po tr i r _ _ Hir' Hi Hr), thread_of_access|].
      eapply t_trans; [apply t_step, (hb_sync tr r b _ _ _ Hrb Hr Hb)|].
      apply t_step, (hb_po tr b j _ _ Hbj Hb Hj). symmetry. apply thread_of_access.
    + (* the later access claims to precede the fork of the earlier
         thread: impossible *)
      exfalso.
      destruct (Hpj i ti wi Hi Hne) as [k [Hjk Hk]].
      pose proof (fork_before_child tr k tj ti i _ Hwf Hk Hi
                    (access_thread _ _ _ _ _ _ Hi Hi)) as Hki.
      lia.
  - (* the earlier access precedes the fork of the later thread *)
    assert (Hne' : tj <> ti) by congruence.
    destruct (Hpi j tj wj Hj Hne') as [k [Hik Hk]].
    eapply t_trans; [apply t_step, (hb_po tr i k _ _ Hik Hi Hk), thread_of_access|].
    exact (hb_fork_any tr k ti tj j _ Hwf Hk Hj (thread_of_access _ _ _)).
Qed.

(* Conflicting accesses to a covered location are always ordered. *)
Theorem C17_conflicts_ordered : forall guard tr,
  wf_exec tr -> disciplined guard tr ->
  forall x, covered guard x ->
  forall i j, conflict_on tr x i j -> hb tr i j \/ hb tr j i.
Proof.
  intros guard tr Hwf Hd x Hc i j [ti [tj [wi [wj [Hi [Hj [Hne _]]]]]]].
  unfold covered in Hc. destruct (guard x) as [m|] eqn:Hg; [|contradiction].
  destruct (lt_eq_lt_dec i j) as [[Hlt|Heq]|Hgt].
  - left. eapply ordered_forward; eassumption.
  - exfalso. subst j.
    pose proof (access_thread _ _ _ _ _ _ Hi Hi) as H1.
    pose proof (access_thread _ _ _ _ _ _ Hj Hi) as H2.
    congruence.
  - right. eapply ordered_forward with (ti := tj) (tj := ti); try eassumption.
    congruence.
Qed.

(* C17: a well-formed execution that follows the locking discipline has no
   data race on any covered location. *)
Theorem C17_discipline_drf : forall guard tr,
  wf_exec tr -> disciplined guard tr ->
  forall x, covered guard x ->
  forall i j, ~ race_on tr x i j.
Proof.
  intros guard tr Hwf Hd x Hc i j [Hconf [Hn1 Hn2]].
  destruct (C17_conflicts_ordered guard tr Hwf Hd x Hc i j Hconf); contradiction.
Qed.

(* An unprotected pair of writes is a race. *)
Example racy_trace_has_race : race_on [Wr 0 5; Wr 1 5] 5 0 1.
Proof.
  assert (Hno : forall a b, ~ hb1 [Wr 0 5; Wr 1 5] a b).
  { intros a b H. inversion H as [i j e1 e2 Hlt H1 H2 Ht|i j t1 t2 m Hlt H1 H2|i j t c Hlt H1 H2]; subst.
    - destruct a as [|[|a]]; destruct b as [|[|b]]; simpl in *;
        try lia; try discriminate;
        try (destruct a; discriminate); try (destruct b; discriminate).
      inversion H1; inversion H2; subst. simpl in Ht. discriminate.
    - destruct a as [|[|a]]; simpl in *; try discriminate. destruct a; discriminate.
    - destruct a as [|[|a]]; simpl in *; try discriminate. destruct a; discriminate. }
  assert (Hnohb : forall a b, ~ hb [Wr 0 5; Wr 1 5] a b).
  { intros a b H. induction H as [a b H|a c b _ IH1 _ _].
    - exact (Hno _ _ H).
    - exact IH1. }
  split; [|split; apply Hnohb].
  exists 0, 1, true, true. repeat split; try reflexivity. discriminate.
Qed.

(* ... and is rejected by the discipline. *)
Example racy_trace_not_disciplined :
  ~ disciplined (fun x => if Nat.eqb x 5 then Some 7 else None) [Wr 0 5; Wr 1 5].
Proof.
  intro Hd.
  assert (Hwf : wf_exec [Wr 0 5; Wr 1 5]) by reflexivity.
  refine (C17_discipline_drf _ _ Hwf Hd 5 _ 0 1 racy_trace_has_race).
  unfold covered. simpl. discriminate.
Qed.

(* A trace in the style of moss: thread 0 constructs (writes location 5
   without the lock), starts thread 1, and then both use location 5 under
   mutex 7. *)
Definition good_trace : list ev :=
  [Wr 0 5; Fork 0 1; Acq 1 7; Wr 1 5; Rel 1 7; Acq 0 7; Rd 0 5; Rel 0 7].

Definition good_guard : loc -> option lock :=
  fun x => if Nat.eqb x 5 then Some 7 else None.

Example good_trace_wf : wf_exec good_trace.
Proof. reflexivity. Qed.

Lemma good_trace_accesses : forall i t x w,
  access_at good_trace i t x w ->
  (i = 0 /\ t = 0 /\ x = 5 /\ w = true) \/
  (i = 3 /\ t = 1 /\ x = 5 /\ w = true) \/
  (i = 6 /\ t = 0 /\ x = 5 /\ w = false).
Proof.
  unfold access_at, good_trace. intros i t x w H.
  destruct i as [|[|[|[|[|[|[|[|i]]]]]]]]; simpl in H;
    try (destruct i; discriminate);
    destruct w; try discriminate; inversion H; subst; auto 10.
Qed.

Example good_trace_disciplined : disciplined good_guard good_trace.
Proof.
  unfold disciplined. intros i t x w m Ha Hg.
  destruct (good_trace_accesses _ _ _ _ Ha)
    as [[-> [-> [-> ->]]]|[[-> [-> [-> ->]]]|[-> [-> [-> ->]]]]];
    inversion Hg; subst m.
  - (* the constructor's write *)
    right. intros j u w Hj Hu.
    destruct (good_trace_accesses _ _ _ _ Hj)
      as [[-> [-> [_ ->]]]|[[-> [-> [_ ->]]]|[-> [-> [_ ->]]]]];
      try (exfalso; apply Hu; reflexivity).
    exists 1. split; [lia|reflexivity].
  - left. reflexivity.
  - left. reflexivity.
Qed.

Example good_trace_race_free : forall i j, ~ race_on good_trace 5 i j.
Proof.
  apply (C17_discipline_drf good_guard good_trace good_trace_wf good_trace_disciplined).
  unfold covered, good_guard. simpl. discriminate.
Qed.

Theorem C17_table_sound : forall tbl,
  check_table tbl = true ->
  forall a, In a tbl -> a_justification a <> JNone.
Proof.
  intros tbl H a Hin Hj. unfold check_table in H.
  rewrite forallb_forall in H. specialize (H a Hin). now rewrite Hj in H.
Qed.

(* The checker is also complete, so a failing [vm_compute] in Table.v means
   there really is an unjustified access in the table. *)
Theorem C17_table_complete : forall tbl,
  (forall a, In a tbl -> a_justification a <> JNone) ->
  check_table tbl = true.
Proof.
  intros tbl H. unfold check_table. apply forallb_forall. intros a Hin.
  specialize (H a Hin). destruct (a_justification a); try reflexivity.
  exfalso. apply H. reflexivity.
Qed.

Print Assumptions C17_conflicts_ordered.
Print Assumptions C17_table_sound.
Print Assumptions C17_discipline_drf.
