(* CodecFacts.v — proofs about Codec.v. *)
From Coq Require Import ZArith NArith List Bool Lia ZifyN ZifyNat.
From Moss Require Import Bytes BytesFacts Segment Codec.
Open Scope N_scope.

Arguments N.mul : simpl never.
Arguments N.add : simpl never.
Arguments N.sub : simpl never.
Arguments N.div : simpl never.
Arguments N.modulo : simpl never.
Arguments N.pow : simpl never.
Arguments N.shiftl : simpl never.
Arguments N.shiftr : simpl never.
Arguments N.land : simpl never.
Arguments N.lor : simpl never.

(* The constants are what the comments in segment.go say they are. *)
Lemma two64_pow : two64 = 2 ^ 64.                Proof. reflexivity. Qed.
Lemma maskValLength_ones : maskValLength = N.ones 28.
Proof. reflexivity. Qed.
Lemma maskKeyLength_ones : maskKeyLength = N.shiftl (N.ones 24) 32.
Proof. reflexivity. Qed.
Lemma maskOperation_ones : maskOperation = N.shiftl (N.ones 4) 56.
Proof. reflexivity. Qed.
Lemma maxKeyLength_pow : maxKeyLength = 2 ^ 24 - 1.   Proof. reflexivity. Qed.
Lemma maxValLength_pow : maxValLength = 2 ^ 28 - 1.   Proof. reflexivity. Qed.
Lemma OperationSet_shift : OperationSet = N.shiftl 1 56.     Proof. reflexivity. Qed.
Lemma OperationDel_shift : OperationDel = N.shiftl 2 56.     Proof. reflexivity. Qed.
Lemma OperationMerge_shift : OperationMerge = N.shiftl 3 56. Proof. reflexivity. Qed.

Lemma masks_partition :
  N.lor (N.lor (N.lor maskOperation maskKeyLength) maskValLength) maskRESERVED
    = two64 - 1
  /\ N.land maskOperation maskKeyLength = 0
  /\ N.land maskOperation maskValLength = 0
  /\ N.land maskKeyLength maskValLength = 0
  /\ N.land maskRESERVED (N.lor (N.lor maskOperation maskKeyLength) maskValLength) = 0.
Proof. repeat split; reflexivity. Qed.

Lemma land_shifted_ones n k x :
  N.land (N.shiftl (N.ones n) k) x = ((x / 2 ^ k) mod 2 ^ n) * 2 ^ k.
Proof.
  rewrite <- N.shiftl_mul_pow2.
  apply N.bits_inj; intro i.
  rewrite N.land_spec.
  destruct (N.ltb_spec i k) as [Hlt|Hge].
  - rewrite !N.shiftl_spec_low by assumption. reflexivity.
  - rewrite !N.shiftl_spec_high' by assumption.
    destruct (N.ltb_spec (i - k) n) as [Hl|Hh].
    + rewrite N.ones_spec_low by assumption.
      rewrite N.mod_pow2_bits_low by assumption.
      rewrite N.div_pow2_bits. cbn [andb].
      f_equal. lia.
    + rewrite N.ones_spec_high by assumption.
      rewrite N.mod_pow2_bits_high by assumption. reflexivity.
Qed.

Lemma land_disjoint_shift a k b : b < 2 ^ k -> N.land (a * 2 ^ k) b = 0.
Proof.
  intro Hb. rewrite <- N.shiftl_mul_pow2.
  apply N.bits_inj; intro i. rewrite N.land_spec, N.bits_0.
  destruct (N.ltb_spec i k) as [Hlt|Hge].
  - rewrite N.shiftl_spec_low by assumption. reflexivity.
  - rewrite <- (N.mod_small b (2 ^ k)) by assumption.
    rewrite N.mod_pow2_bits_high by assumption. apply andb_false_r.
Qed.

Lemma lor_disjoint_add a b : N.land a b = 0 -> N.lor a b = a + b.
Proof.
  intro H. rewrite <- N.lxor_lor by assumption.
  symmetry. apply N.add_nocarry_lxor. assumption.
Qed.

Lemma lor_shift_add a k b : b < 2 ^ k -> N.lor (a * 2 ^ k) b = a * 2 ^ k + b.
Proof. intro H. apply lor_disjoint_add, land_disjoint_shift, H. Qed.

(* field extraction, as decodeOpKeyLenValLen performs it *)
Lemma op_field w : N.land maskOperation w = ((w / 2 ^ 56) mod 2 ^ 4) * 2 ^ 56.
Proof. rewrite maskOperation_ones. apply land_shifted_ones. Qed.

Lemma key_field w : N.shiftr (N.land maskKeyLength w) 32 = (w / 2 ^ 32) mod 2 ^ 24.
Proof.
  rewrite maskKeyLength_ones, land_shifted_ones, N.shiftr_div_pow2.
  apply N.div_mul. discriminate.
Qed.

Lemma val_field w : N.land maskValLength w = w mod 2 ^ 28.
Proof. rewrite maskValLength_ones, N.land_comm. apply N.land_ones. Qed.

Lemma pow_consts :
  2 ^ 4 = 16 /\ 2 ^ 24 = 16777216 /\ 2 ^ 28 = 268435456 /\ 2 ^ 32 = 4294967296
  /\ 2 ^ 56 = 72057594037927936 /\ 2 ^ 64 = 18446744073709551616.
Proof. repeat split; reflexivity. Qed.

Lemma key_shift_wrap kl :
  (((kl mod two64) * 2 ^ 32) mod two64 / 2 ^ 32) mod 2 ^ 24 = kl mod 2 ^ 24.
Proof. unfold two64. lia. Qed.

Lemma val_wrap vl : (vl mod two64) mod 2 ^ 28 = vl mod 2 ^ 28.
Proof. unfold two64. lia. Qed.

Lemma encode_arith op kl vl :
  encode op kl vl
  = ((op / 2 ^ 56) mod 2 ^ 4) * 2 ^ 56 + (kl mod 2 ^ 24) * 2 ^ 32 + vl mod 2 ^ 28.
Proof.
  unfold encode, u64. rewrite op_field, val_field.
  rewrite maskKeyLength_ones, land_shifted_ones, N.shiftl_mul_pow2.
  rewrite key_shift_wrap, val_wrap.
  rewrite (lor_shift_add _ 56) by lia.
  replace (2 ^ 56) with (2 ^ 24 * 2 ^ 32) by reflexivity.
  rewrite N.mul_assoc, <- N.mul_add_distr_r.
  rewrite (lor_shift_add _ 32) by lia. reflexivity.
Qed.

Lemma fields_of_sum o k v :
  o < 2 ^ 4 -> k < 2 ^ 24 -> v < 2 ^ 28 ->
  let w := o * 2 ^ 56 + k * 2 ^ 32 + v in
  (w / 2 ^ 56) mod 2 ^ 4 = o /\ (w / 2 ^ 32) mod 2 ^ 24 = k /\ w mod 2 ^ 28 = v.
Proof. lia. Qed.

(* What decode gives back for ANY arguments: each field reduced to its width. *)
Theorem decode_encode_general op kl vl :
  decode (encode op kl vl) = (N.land maskOperation op, kl mod 2 ^ 24, vl mod 2 ^ 28).
Proof.
  unfold decode. rewrite op_field, key_field, val_field, (op_field op), encode_arith.
  destruct (fields_of_sum ((op / 2 ^ 56) mod 2 ^ 4) (kl mod 2 ^ 24) (vl mod 2 ^ 28))
    as (-> & -> & ->); try (apply N.mod_lt; discriminate).
  reflexivity.
Qed.

Definition valid_op_code (c : N) : Prop :=
  c = OperationSet \/ c = OperationDel \/ c = OperationMerge.

Lemma valid_op_code_mask c : valid_op_code c -> N.land maskOperation c = c.
Proof. intros [-> | [-> | ->]]; reflexivity. Qed.

(* C19: the word round-trips exactly within the limits guarded by mutateEx. *)
Theorem C19_word_roundtrip op_code key_len val_len :
  key_len <= 2 ^ 24 - 1 -> val_len <= 2 ^ 28 - 1 -> valid_op_code op_code ->
  decode (encode op_code key_len val_len) = (op_code, key_len, val_len).
Proof.
  intros Hk Hv Ho. rewrite decode_encode_general, (valid_op_code_mask _ Ho).
  rewrite !N.mod_small by lia. reflexivity.
Qed.
Print Assumptions C19_word_roundtrip.

Lemma mutate_guard_none key_len val_len :
  mutate_guard key_len val_len = None <-> key_len <= maxKeyLength /\ val_len <= maxValLength.
Proof.
  unfold mutate_guard.
  destruct (N.ltb_spec maxKeyLength key_len); [|destruct (N.ltb_spec maxValLength val_len)];
    split; (discriminate || lia || reflexivity).
Qed.

(* the same, phrased with the guard of mutateEx *)
Corollary C19_word_roundtrip_guard op_code key_len val_len :
  mutate_guard key_len val_len = None -> valid_op_code op_code ->
  decode (encode op_code key_len val_len) = (op_code, key_len, val_len).
Proof. intros [Hk Hv]%mutate_guard_none. apply C19_word_roundtrip; assumption. Qed.

(* Converse: one past either limit and the word aliases another entry.  (No
   upper bound on the lengths is needed: the field is reduced mod its width.) *)
Theorem C19_word_limit_exact op_code key_len val_len :
  2 ^ 24 <= key_len \/ 2 ^ 28 <= val_len ->
  decode (encode op_code key_len val_len) <> (op_code, key_len, val_len).
Proof.
  intros H E. rewrite decode_encode_general in E.
  injection E as _ Ek Ev. lia.
Qed.
Print Assumptions C19_word_limit_exact.

(* The guard rejects exactly the arguments that do not round-trip. *)
Theorem C19_guard_exact op_code key_len val_len :
  valid_op_code op_code ->
  (mutate_guard key_len val_len = None
   <-> decode (encode op_code key_len val_len) = (op_code, key_len, val_len)).
Proof.
  intro Ho. split.
  - intro Hg. apply C19_word_roundtrip_guard; assumption.
  - intro E. apply mutate_guard_none.
    assert (Hlim : ~ (2 ^ 24 <= key_len \/ 2 ^ 28 <= val_len))
      by (intro H; exact (C19_word_limit_exact _ _ _ H E)).
    unfold maxKeyLength, maxValLength. lia.
Qed.
Print Assumptions C19_guard_exact.

Example C19_key_2_24_aliases_empty_key :
  decode (encode OperationSet 16777216 5) = (OperationSet, 0, 5).
Proof. vm_compute. reflexivity. Qed.
Example C19_key_max_ok :
  decode (encode OperationSet 16777215 5) = (OperationSet, 16777215, 5).
Proof. vm_compute. reflexivity. Qed.
Example C19_val_2_28_aliases_empty_val :
  decode (encode OperationMerge 3 268435456) = (OperationMerge, 3, 0).
Proof. vm_compute. reflexivity. Qed.
Example C19_val_max_ok :
  decode (encode OperationMerge 3 268435455) = (OperationMerge, 3, 268435455).
Proof. vm_compute. reflexivity. Qed.
(* the shift really wraps: a key length of 2^32 vanishes altogether *)
Example C19_key_2_32_wraps :
  decode (encode OperationDel 4294967296 0) = (OperationDel, 0, 0).
Proof. vm_compute. reflexivity. Qed.
Lemma encode_reserved_clear op kl vl : N.land maskRESERVED (encode op kl vl) = 0.
Proof.
  unfold encode.
  rewrite !N.land_lor_distr_r, !N.land_assoc.
  replace (N.land maskRESERVED maskOperation) with 0 by reflexivity.
  replace (N.land maskRESERVED maskKeyLength) with 0 by reflexivity.
  replace (N.land maskRESERVED maskValLength) with 0 by reflexivity.
  rewrite !N.land_0_l. reflexivity.
Qed.

Lemma encode_lt_two64 op kl vl : encode op kl vl < two64.
Proof.
  rewrite encode_arith.
  unfold two64. lia.
Qed.

(* Alloc hands out buf[lo:hi], whose cap is cap(buf) - lo; AllocSet recovers lo *)
Lemma alloc_key_start_ok buf_cap lo :
  lo <= buf_cap -> alloc_key_start buf_cap (alloc_slice_cap buf_cap lo) = lo.
Proof. unfold alloc_key_start, alloc_slice_cap. lia. Qed.

Lemma le_enc_length n x : length (le_enc n x) = n.
Proof. revert x; induction n as [|n IH]; intro x; cbn [le_enc length]; [reflexivity|]. now rewrite IH. Qed.

Lemma le_enc_all_bytes n x : all_bytes (le_enc n x) = true.
Proof.
  revert x; induction n as [|n IH]; intro x; cbn [le_enc all_bytes forallb]; [reflexivity|].
  fold (all_bytes (le_enc n (x / 256))). rewrite IH, andb_true_r.
  unfold is_byte. apply N.ltb_lt. apply N.mod_lt. discriminate.
Qed.

Lemma le_dec_enc n x : le_dec (le_enc n x) = x mod 256 ^ N.of_nat n.
Proof.
  revert x; induction n as [|n IH]; intro x.
  - cbn [le_enc le_dec]. change (256 ^ N.of_nat 0) with 1. now rewrite N.mod_1_r.
  - cbn [le_enc le_dec]. rewrite IH.
    replace (N.of_nat (S n)) with (N.succ (N.of_nat n)) by lia.
    rewrite N.pow_succ_r'.
    rewrite (N.mod_mul_r x 256 (256 ^ N.of_nat n)); [reflexivity|discriminate|].
    apply N.pow_nonzero. discriminate.
Qed.

Lemma le_dec_enc_small n x : x < 256 ^ N.of_nat n -> le_dec (le_enc n x) = x.
Proof. intro H. rewrite le_dec_enc. now apply N.mod_small. Qed.

Lemma le_dec_bound b : all_bytes b = true -> le_dec b < 256 ^ N.of_nat (length b).
Proof.
  induction b as [|c r IH]; cbn [all_bytes forallb le_dec length]; intro H.
  - reflexivity.
  - apply andb_true_iff in H as [Hc Hr]. unfold is_byte in Hc. apply N.ltb_lt in Hc.
    specialize (IH Hr).
    replace (N.of_nat (S (length r))) with (N.succ (N.of_nat (length r))) by lia.
    rewrite N.pow_succ_r'. set (M := 256 ^ N.of_nat (length r)) in *. clearbody M. nia.
Qed.

Lemma le_enc_dec b : all_bytes b = true -> le_enc (length b) (le_dec b) = b.
Proof.
  induction b as [|c r IH]; cbn [all_bytes forallb le_dec length le_enc]; intro H.
  - reflexivity.
  - apply andb_true_iff in H as [Hc Hr]. unfold is_byte in Hc. apply N.ltb_lt in Hc.
    f_equal.
    + rewrite (N.mul_comm 256), N.mod_add by discriminate. now apply N.mod_small.
    + rewrite (N.mul_comm 256), N.div_add by discriminate.
      rewrite (N.div_small c 256) by assumption. rewrite N.add_0_l. now apply IH.
Qed.

Theorem le_u32_roundtrip x : x < 2 ^ 32 -> le_dec (le_u32 x) = x.
Proof. intro H. apply le_dec_enc_small. exact H. Qed.
Theorem le_u64_roundtrip x : x < 2 ^ 64 -> le_dec (le_u64 x) = x.
Proof. intro H. apply le_dec_enc_small. exact H. Qed.
Theorem le_u32_truncates x : le_dec (le_u32 x) = x mod 2 ^ 32.
Proof. apply le_dec_enc. Qed.
Theorem le_u64_truncates x : le_dec (le_u64 x) = x mod 2 ^ 64.
Proof. apply le_dec_enc. Qed.
Theorem le_u32_roundtrip_bytes b :
  length b = 4%nat -> all_bytes b = true -> le_u32 (le_dec b) = b.
Proof. intros L H. unfold le_u32. rewrite <- L. now apply le_enc_dec. Qed.
Theorem le_u64_roundtrip_bytes b :
  length b = 8%nat -> all_bytes b = true -> le_u64 (le_dec b) = b.
Proof. intros L H. unfold le_u64. rewrite <- L. now apply le_enc_dec. Qed.
Print Assumptions le_u64_roundtrip.
Print Assumptions le_u64_roundtrip_bytes.

Section PageAlign.
  Variable P : N.
  Hypothesis HP : 0 < P.

  Lemma P_nz : P <> 0.
  Proof. lia. Qed.

  Lemma aligned_iff q : aligned P q <-> exists k, q = k * P.
  Proof.
    unfold aligned. rewrite (N.mod_divide q P P_nz). reflexivity.
  Qed.

  Lemma aligned_0 : aligned P 0.
  Proof. apply aligned_iff. exists 0. lia. Qed.

  Lemma aligned_add q : aligned P q -> aligned P (q + P).
  Proof. rewrite !aligned_iff. intros [k ->]. exists (k + 1). lia. Qed.

  Lemma aligned_sub q : aligned P q -> aligned P (q - P).
  Proof. rewrite !aligned_iff. intros [k ->]. exists (k - 1). nia. Qed.

  (* two distinct multiples of P are at least P apart *)
  Lemma aligned_gap a b : aligned P a -> aligned P b -> a < b -> a + P <= b.
  Proof.
    rewrite !aligned_iff. intros [k ->] [j ->] H.
    assert (k < j) by nia. nia.
  Qed.

  Lemma pos_decomp pos : pos = P * (pos / P) + pos mod P /\ pos mod P < P.
  Proof. split; [apply N.div_mod, P_nz | apply N.mod_lt, P_nz]. Qed.

  Ltac dm pos q r :=
    let D := fresh "D" in let L := fresh "L" in
    destruct (pos_decomp pos) as [D L];
    set (q := pos / P) in *; set (r := pos mod P) in *; clearbody q r.

  Lemma ceil_of_aligned pos : aligned P pos -> pageAlignCeil P pos = pos.
  Proof. unfold aligned, pageAlignCeil. intros ->. reflexivity. Qed.

  Lemma ceil_spec pos :
    aligned P (pageAlignCeil P pos) /\ pos <= pageAlignCeil P pos < pos + P.
  Proof.
    unfold pageAlignCeil, aligned. destruct (N.eqb_spec (pos mod P) 0) as [E|E].
    - split; [exact E|lia].
    - dm pos q r. replace (pos + P - r) with ((q + 1) * P) by nia.
      split; [apply N.mod_mul, P_nz|nia].
  Qed.

  Lemma ceil_aligned pos : aligned P (pageAlignCeil P pos).
  Proof. apply ceil_spec. Qed.

  Lemma ceil_ge pos : pos <= pageAlignCeil P pos.
  Proof. apply ceil_spec. Qed.

  Lemma ceil_lt pos : pageAlignCeil P pos < pos + P.
  Proof. apply ceil_spec. Qed.

  Lemma ceil_least pos m : aligned P m -> pos <= m -> pageAlignCeil P pos <= m.
  Proof using HP.
    intros Hm Hle. destruct (ceil_spec pos) as [Ha [_ Hlt]].
    destruct (N.le_gt_cases (pageAlignCeil P pos) m) as [H|H]; [exact H|].
    pose proof (aligned_gap _ _ Hm Ha H). lia.
  Qed.

  Lemma ceil_idem pos : pageAlignCeil P (pageAlignCeil P pos) = pageAlignCeil P pos.
  Proof. apply ceil_of_aligned, ceil_aligned. Qed.

  Lemma floor_of_aligned pos : aligned P pos -> pageAlignFloor P pos = pos.
  Proof. unfold aligned, pageAlignFloor. intros ->. reflexivity. Qed.

  Lemma floor_eq pos : pageAlignFloor P pos = P * (pos / P).
  Proof.
    unfold pageAlignFloor. dm pos q r.
    destruct (N.eqb_spec r 0) as [E|E]; lia.
  Qed.

  Lemma floor_aligned pos : aligned P (pageAlignFloor P pos).
  Proof. rewrite floor_eq. apply aligned_iff. exists (pos / P). lia. Qed.

  Lemma floor_le pos : pageAlignFloor P pos <= pos.
  Proof. rewrite floor_eq. dm pos q r. lia. Qed.

  Lemma floor_gt pos : pos < pageAlignFloor P pos + P.
  Proof. rewrite floor_eq. dm pos q r. lia. Qed.

  Lemma floor_greatest pos m : aligned P m -> m <= pos -> m <= pageAlignFloor P pos.
  Proof.
    intros Hm Hle. rewrite floor_eq.
    apply aligned_iff in Hm as [k ->].
    dm pos q r.
    assert (k <= q) by nia. nia.
  Qed.

  Lemma floor_idem pos : pageAlignFloor P (pageAlignFloor P pos) = pageAlignFloor P pos.
  Proof. apply floor_of_aligned, floor_aligned. Qed.

  Lemma floor_div pos : pageAlignFloor P pos / P = pos / P.
  Proof. rewrite floor_eq, N.mul_comm. apply N.div_mul, P_nz. Qed.

  Theorem page_align_sandwich pos :
    pageAlignFloor P pos <= pos /\ pos <= pageAlignCeil P pos /\ pageAlignCeil P pos < pos + P.
  Proof. split; [apply floor_le | split; [apply ceil_ge | apply ceil_lt]]. Qed.

  Lemma ceil_floor_same_or_next pos :
    pageAlignCeil P pos = pageAlignFloor P pos \/
    pageAlignCeil P pos = pageAlignFloor P pos + P.
  Proof.
    unfold pageAlignCeil, pageAlignFloor. dm pos q r.
    destruct (N.eqb_spec r 0) as [E|E]; [left; reflexivity|right; lia].
  Qed.

  Lemma pageOffset_floor pos : pageOffset pos P = pageAlignFloor P pos.
  Proof. reflexivity. Qed.
End PageAlign.

Lemma StorePageSize_pos : 0 < StorePageSize.
Proof. reflexivity. Qed.
Definition page_align_sandwich_4096 := page_align_sandwich StorePageSize StorePageSize_pos.
Definition ceil_least_4096 := ceil_least StorePageSize StorePageSize_pos.
Definition floor_greatest_4096 := floor_greatest StorePageSize StorePageSize_pos.
Print Assumptions page_align_sandwich.
Print Assumptions ceil_least.
Print Assumptions floor_greatest.
