(* OwnersProgressLoops.v -- the invariant of the progress theorems (Good: G, no
   handle in flight, and Ctl, what the merger's and persister's temporaries hold
   between operations), the tactic that runs one step of an operation's program by
   the rules of OwnersProgressRules.v, and the rules for the loops of Owners.v
   (loadSegments, the child footers / child stacks of a snapshot, a merge, a refresh). *)
From Coq Require Import List Arith Bool Lia.
From Moss Require Import Owners OwnersFacts OwnersProgress OwnersProgressRules.
Import ListNotations.

(* what the merger's and the persister's temporaries hold between steps *)
Definition Ctl (st : state) : Prop :=
  (mph (ct st) <> 1 -> regs st MMid = None /\ regs st MBase = None) /\
  (pph (ct st) <> 2 -> regs st PNext = None).
Definition Good (st : state) : Prop := G st /\ hand st = [] /\ Ctl st.

Ltac norm :=
  try progress cbn [hp files regs handles hand leaked elog ct with_ct with_hp with_hand rset slot_eqb olist app
                    whenS okind handle_ty nch mph pph pbase copen sopen cur nextfile inc];
  cbn [hp files regs handles hand leaked elog ct with_ct with_hp with_hand rset slot_eqb olist app whenS okind
       handle_ty nch mph pph pbase copen sopen cur nextfile inc] in * |-;
  repeat match goal with
         | H : okind _ _ _ /\ _ |- _ => destruct H
         | H : True /\ _ |- _ => destruct H
         | H : hask _ _ _ /\ _ |- _ => destruct H
         end.

Ltac rewrite_known :=
  repeat match goal with
         | E : ?r ?sl = _ |- context [?r ?sl] => is_var r; rewrite E
         end.

(* G of the state an operation starts in, under a name the steps do not clear: a register read
   late in the program is typed from it (derive) *)
Definition Init (st : state) : Prop := G st.

Ltac grow_tac :=
  solve [ apply grow_refl | assumption | eapply grow_trans; [eassumption | grow_tac] ].
Ltac kext_tac :=
  solve [ apply kext_refl | assumption | apply grow_kext; grow_tac
        | eapply kext_trans;
          [ first [ eassumption | apply grow_kext; eassumption | apply dec_kext; eassumption ]
          | kext_tac ] ].

Ltac derive E :=
  try match type of E with
      | first_ref ?a ?s = Some ?o =>
          match goal with
          | HG : G s, Ha : hask _ a ?k |- _ =>
              let H1 := fresh "Hk" in let H2 := fresh "Hl" in
              destruct (first_ref_facts s a k o HG E Ha) as [H1 H2]; cbn [ref_kind] in H1; norm
          end
      | nth_error (kids_of ?a ?s) ?i = Some ?c =>
          match goal with
          | HG : G s, Ha : hask _ a ?k |- _ =>
              let H1 := fresh "Hk" in let H2 := fresh "Hl" in let H3 := fresh "Hk" in
              destruct (kid_facts s a k i c HG E Ha) as [H1 H2];
              pose proof (has_hask _ _ _ _ H1) as H3; norm
          end
      | nth_error ?hs ?i = Some ?hd =>
          match goal with
          | HG : G (mkState ?a ?b ?c hs ?d ?e ?f ?g) |- _ =>
              let H1 := fresh "Hh" in
              pose proof (handle_facts (mkState a b c hs d e f g) i hd HG E) as H1; norm
          end
      | ?r ?sl = Some ?o =>
          match goal with
          | |- runs _ ?s _ =>
              match goal with
              | HG : G s |- _ =>
                  let H1 := fresh "Hk" in
                  pose proof (reg_facts s sl o HG E) as H1; cbn [slot_kind] in H1; norm
              end
          end
      | ?r ?sl = Some ?o =>
          match goal with
          | HI : Init (mkState ?h0 ?a r ?b ?c ?d ?e ?f) |- runs _ (mkState ?h1 _ _ _ _ _ _ _) _ =>
              let H1 := fresh "Hk" in
              pose proof (reg_facts (mkState h0 a r b c d e f) sl o HI E) as H1;
              cbn [slot_kind] in H1; norm;
              let K := fresh "K" in
              assert (K : kext h0 h1) by kext_tac;
              apply (hask_kext _ _ _ _ K) in H1; clear K
          end
      | _ = Some ?fr =>
          match goal with
          | |- runs _ ?s _ =>
              match goal with
              | HG : G s, Hf : hask _ ?f KFooter |- _ =>
                  let H1 := fresh "Hk" in let H2 := fresh "Hl" in
                  first [ destruct (file_ref_facts s f fr HG Hf E) as [H1 H2]
                        | destruct (first_file_facts s f fr HG Hf E) as [H1 H2] ]; norm
              end
          end
      end.

Ltac scrut x :=
  first [ is_var x; destruct x
        | let E := fresh "E" in destruct x eqn:E; try rewrite E in *; derive E ].

Ltac guard_hyps :=
  unfold reg, is_some in *; norm;
  repeat match goal with
         | H : (_ && _) = true |- _ => apply andb_prop in H; destruct H
         end;
  repeat match goal with
         | H : Nat.eqb _ _ = true |- _ => apply Nat.eqb_eq in H
         | H : negb _ = true |- _ => apply negb_true_iff in H
         | H : match ?x with Some _ => true | None => false end = true |- _ =>
             let E := fresh "E" in destruct x eqn:E; [|discriminate H]; try rewrite E in *; clear H;
             derive E
         | H : match ?x with Some _ => true | None => false end = false |- _ =>
             let E := fresh "E" in destruct x eqn:E; [discriminate H|]; try rewrite E in *; clear H
         end.

Ltac allk_tac :=
  cbn [ref_kind olist];
  first [ assumption | apply allk_nil | apply allk_one; assumption
        | apply allk_one; eapply has_hask; eassumption
        | apply allk_app; allk_tac | apply allk_firstn; allk_tac
        | eapply allhas_allk; eassumption
        | match goal with
          | |- allk _ (kids_of ?a ?s) ?k =>
              match goal with HG : G s, Ha : hask _ a k |- _ =>
                eapply allhas_allk; apply (proj1 (kids_facts s a k HG Ha)) end
          | |- allk _ (refs_of ?a ?s) _ =>
              match goal with HG : G s, Ha : hask _ a ?k |- _ =>
                apply (proj1 (refs_facts s a k HG Ha)) end
          end ].
Lemma holds_alllive s a rs ks : G s -> holds (hp s) a rs ks -> alllive (hp s) rs.
Proof.
  intros HG [ob [E [A B]]] r Hr. eapply live_ref; eauto. unfold orefs. apply in_or_app. left.
  rewrite A. exact Hr.
Qed.
Ltac alllive_tac :=
  first [ assumption | apply alllive_nil | apply alllive_firstn; alllive_tac
        | match goal with
          | Hh : holds ?h ?a ?rs _, HG : G (mkState ?h ?x1 ?x2 ?x3 ?x4 ?x5 ?x6 ?x7) |- alllive ?h ?rs =>
              apply (holds_alllive (mkState h x1 x2 x3 x4 x5 x6 x7) a rs _ HG Hh)
          end
        | match goal with
          | |- alllive _ (kids_of ?a ?s) =>
              match goal with HG : G s, Ha : hask _ a ?k |- _ =>
                apply (proj2 (kids_facts s a k HG Ha)) end
          | |- alllive _ (refs_of ?a ?s) =>
              match goal with HG : G s, Ha : hask _ a ?k |- _ =>
                apply (proj2 (refs_facts s a k HG Ha)) end
          end ].
Ltac allhas_tac :=
  first [ assumption | apply allhas_nil | apply allhas_one; assumption
        | apply allhas_app; allhas_tac ].
Ltac hask_tac :=
  cbn [slot_kind ref_kind]; first [ assumption | eapply has_hask; eassumption ].

Ltac ctl_facts :=
  try match goal with
      | C1 : ?m <> 1 -> ?a = None /\ ?b = None |- _ =>
          let X := fresh "Em" in let Y := fresh "Eb" in
          assert (X : a = None /\ b = None) by (apply C1; lia); destruct X as [X Y]
      end;
  try match goal with
      | C2 : ?m <> 2 -> ?a = None |- _ =>
          let X := fresh "Ep" in assert (X : a = None) by (apply C2; lia)
      end.

(* One step of symbolic execution.  The goal is runs m s Q with HG : G s in the context; the
   head primitive of m is run by its rule of OwnersProgressRules, the rule's side conditions
   are closed from the context (left open when that fails, for the caller to close), and the
   continuation is entered with G of the new state in place of HG and the facts about the old
   heap carried over (tr_grow, tr_dec).  A match or an optional value is split by cases, the
   equation of a split read being turned into what it tells of the object read (derive). *)
Ltac rstep :=
  norm;
  lazymatch goal with
  | |- runs (bind _ _) _ _ => apply runs_bind
  | |- runs ret _ _ => apply runs_ret
  | |- runs (rd _ _) _ _ => apply runs_rd; cbv beta; unfold reg, cur_inc; norm; rewrite_known
  | |- runs (whenS ?x addref) ?s _ =>
      withG ltac:(fun HG =>
        apply (runs_oaddref x s _ HG);
        [ norm; try solve [alllive_tac]
        | let Hgr := fresh "Hgr" in let HG' := fresh "HG" in
          intros ? ? HG' Hgr; norm; tr_grow Hgr; clear HG ])
  | |- runs (whenS ?x setrm) ?s _ =>
      withG ltac:(fun HG =>
        apply (runs_osetrm x KFile s _ HG);
        [ match goal with
          | Hf : hask _ ?f KFooter |- okind _ (match refs_of ?f _ with _ => _ end) _ =>
              apply (file_ref_okind s f HG Hf)
          end
        | let Hgr := fresh "Hgr" in let HG' := fresh "HG" in
          intros ? HG' Hgr; norm; tr_grow Hgr; clear HG ])
  | |- runs (whenS ?x _) _ _ => scrut x
  | |- runs (odecref ?x) ?s _ =>
      withG ltac:(fun HG =>
        apply (runs_odecref x s _ HG);
        [ norm; try solve [hand_le]
        | let Hd := fresh "Hd" in let HG' := fresh "HG" in let Hs := fresh "Hs" in
          intros ? ? ? ? HG' Hd Hs; norm; tr_dec Hd; clear HG ])
  | |- runs (close_slot _) _ _ => unfold close_slot
  | |- runs invalidate _ _ => unfold invalidate, close_slot
  | |- runs (guard _ _) _ _ =>
      apply runs_guard; [ let Hg := fresh "Hg" in intro Hg; guard_hyps; ctl_facts | let Hg := fresh "Hg" in intro Hg ]
  | |- runs (addref ?o) ?s _ =>
      withG ltac:(fun HG =>
        apply (runs_addref o s _ HG);
        [ try solve [live_tac]
        | let Hgr := fresh "Hgr" in let HG' := fresh "HG" in
          intros ? ? HG' Hgr; norm; tr_grow Hgr; clear HG ])
  | |- runs (decref ?o) ?s _ =>
      withG ltac:(fun HG =>
        apply (runs_decref o s _ HG);
        [ norm; try solve [hand_in]
        | let Hd := fresh "Hd" in let HG' := fresh "HG" in let Hs := fresh "Hs" in
          intros ? ? ? ? HG' Hd Hs; norm; tr_dec Hd; clear HG ])
  | |- runs (alloc_k ?k ?top ?rs ?ks ?file ?cont) ?s _ =>
      withG ltac:(fun HG =>
        apply (runs_alloc_k k top rs ks file cont s _ HG);
        [ norm; try solve [hand_le]
        | try solve [ left; discriminate | right; reflexivity ]
        | norm; try solve [allk_tac]
        | try solve [ left; reflexivity
                    | right; split; [reflexivity | first [left; reflexivity | right; reflexivity]] ]
        | norm; try solve [allhas_tac]
        | try solve [ let X := fresh "X" in (intro X; discriminate X) | intros _; simpl; lia | intros _; apply length_olist ]
        | let Hgr := fresh "Hgr" in let HG' := fresh "HG" in let Hs := fresh "Hs" in
          let Hh := fresh "Hhas" in let Hk := fresh "Hk" in
          intros ? ? ? HG' Hgr Hh Hs; norm; tr_grow Hgr;
          pose proof (has_hask _ _ _ _ Hh) as Hk; clear HG ])
  | |- runs (put ?sl ?o) ?s _ =>
      withG ltac:(fun HG =>
        apply (runs_put sl o s _ HG);
        [ norm; try solve [ reflexivity | assumption ]
        | norm; try solve [hand_in]
        | norm; try solve [hask_tac]
        | let HG' := fresh "HG" in let Hs := fresh "Hs" in intros ? HG' Hs; norm; clear HG ])
  | |- runs (take ?sl) ?s _ =>
      withG ltac:(fun HG =>
        eapply (runs_take sl _ s _ HG);
        [ norm; rewrite_known; reflexivity | let HG' := fresh "HG" in intros HG'; norm; clear HG ])
  | |- runs (pushh ?hd) ?s _ =>
      withG ltac:(fun HG =>
        apply (runs_pushh hd s _ HG);
        [ norm; try solve [hand_le]
        | norm; try solve [cbn [handle_ty okind]; repeat split; first [ hask_tac | exact I ]]
        | let HG' := fresh "HG" in let Hs := fresh "Hs" in intros ? HG' Hs; norm; clear HG ])
  | |- runs (poph ?i) ?s _ =>
      withG ltac:(fun HG =>
        match goal with
        | E : nth_error _ i = Some ?hd |- _ =>
            apply (runs_poph i hd s _ HG);
            [ norm; exact E | let HG' := fresh "HG" in intros HG'; norm; clear HG ]
        end)
  | |- runs (set_ctl ?f) ?s _ =>
      withG ltac:(fun HG =>
        apply (runs_set_ctl f s _ HG); let HG' := fresh "HG" in intros HG'; norm; clear HG)
  | |- runs unlog ?s _ =>
      withG ltac:(fun HG =>
        apply (runs_unlog s _ HG); let HG' := fresh "HG" in intros ? HG'; norm; clear HG)
  | |- runs bump_file ?s _ =>
      withG ltac:(fun HG =>
        apply (runs_bump_file s _ HG); let HG' := fresh "HG" in intros ? ? ? ? ? ? ? ? ? HG'; norm; clear HG)
  | |- runs (newfile _) _ _ => unfold newfile
  | |- runs (match ?x with _ => _ end) _ _ => scrut x
  end.
Ltac rgo := repeat rstep.

(* the end of an operation *)
Ltac ctl_tac :=
  unfold Ctl in *; norm; cbn [mph pph c_mph c_pph c_nch c_drop c_copen c_sopen] in *;
  repeat split; intros; try reflexivity; try assumption; try congruence;
  try (match goal with C : _ -> _ /\ _ |- _ => apply C; congruence || lia end);
  try (match goal with C : _ -> _ = None |- _ => apply C; congruence || lia end); try lia.
Ltac fin :=
  norm;
  lazymatch goal with
  | |- runs finish ?s _ =>
      apply runs_finish;
      [ norm; solve [hand_nil]
      | split; [ assumption | split; [ norm; solve [hand_nil] | ctl_tac ] ] ]
  end.

Lemma runs_each_addref ms : forall s (Q : state -> Prop), G s -> alllive (hp s) ms ->
  (forall h' l' lg',
     G (with_hand (with_hp s h' (files s) lg') l') ->
     grow (hp s) h' -> hsplit l' ms (hand s) ->
     Q (with_hand (with_hp s h' (files s) lg') l')) ->
  runs (each ms addref) s Q.
Proof.
  induction ms as [|m r IH]; intros s Q HG A K; destruct s as [h fs rg hs l lk lg c]; simpl each; norm.
  - apply runs_ret. apply K; auto. apply grow_refl. intro x. rewrite cn_nil. lia.
  - assert (A' : alllive h r) by (intros x Hx; apply A; right; exact Hx).
    assert (Lm : live h m) by (apply A; left; reflexivity).
    norm. rstep. rstep. apply IH; auto. intros h2 l2 lg2 HG2 Hgr2 Hs2. norm. apply K; auto.
    + grow_tac.
    + hand_le.
Qed.

(* what a loop that collects new objects owes its continuation; Rh is grow, or kext for a
   loop that also releases *)
Definition kont (Rh : heap -> heap -> Prop) (k : kind) (cont : list oid -> M) (acc : list oid)
           (s : state) (Q : state -> Prop) : Prop :=
  forall h' fs' l' lg' ks,
    G (with_hand (with_hp s h' fs' lg') l') ->
    Rh (hp s) h' -> hsplit l' ks (hand s) -> allhas h' ks k false ->
    runs (cont (acc ++ ks)) (with_hand (with_hp s h' fs' lg') l') Q.

Lemma kont_nil (Rh : heap -> heap -> Prop) k cont acc s Q : (forall h, Rh h h) -> G s -> kont Rh k cont acc s Q ->
  runs (cont acc) s Q.
Proof.
  intros Rr HG K. destruct s. rewrite <- (app_nil_r acc). apply K; auto.
  - intro x. rewrite cn_nil. reflexivity.
  - apply allhas_nil.
Qed.

Lemma kont_snoc (Rh : heap -> heap -> Prop) k cont acc n s s1 Q :
  (forall a b c, Rh a b -> Rh b c -> Rh a c) -> (forall a b, Rh a b -> kext a b) ->
  kont Rh k cont acc s Q ->
  regs s1 = regs s -> handles s1 = handles s -> leaked s1 = leaked s -> ct s1 = ct s ->
  Rh (hp s) (hp s1) -> has (hp s1) n k false -> hsplit (hand s1) [n] (hand s) ->
  kont Rh k cont (acc ++ [n]) s1 Q.
Proof.
  unfold kont, with_hand, with_hp. intros Rt Rk K E1 E2 E3 E4 R1 Hn Hs h' fs' l' lg' ks. rewrite E1, E2, E3, E4.
  intros HG R2 Hs' Hks. rewrite <- app_assoc. apply K; auto.
  - eapply Rt; eauto.
  - intro x. rewrite (Hs' x), (Hs x), cn_app. lia.
  - intros c [<-|Hc]; [eapply has_kext; eauto|auto].
Qed.
Ltac kont_grow K :=
  eapply (kont_snoc grow _ _ _ _ _ _ _ grow_trans grow_kext K);
  [reflexivity|reflexivity|reflexivity|reflexivity|grow_tac|eassumption|cbn [hand]; hand_le].

Lemma runs_new_mmaps n : forall fr acc cont s (Q : state -> Prop),
  G s -> live (hp s) fr -> hask (hp s) fr KFile -> kont grow KMmap cont acc s Q ->
  runs (new_mmaps n fr acc cont) s Q.
Proof.
  induction n as [|n IH]; intros fr acc cont s Q HG L Hk K; [exact (kont_nil _ _ _ _ _ _ grow_refl HG K)|].
  destruct s as [h fs rg hs l lk lg c]. simpl new_mmaps. rstep. rstep. rstep. rstep.
  apply IH; auto. kont_grow K.
Qed.

Lemma runs_load_footer top old nnew fr ks tag cont s (Q : state -> Prop) :
  G s -> alllive (hp s) old -> allk (hp s) old KMmap -> live (hp s) fr -> hask (hp s) fr KFile ->
  allhas (hp s) ks KFooter false -> (ks = [] \/ top = true) -> hle ks (hand s) ->
  (forall h' fs' l' lg' n,
     G (with_hand (with_hp s h' fs' lg') (n :: l')) ->
     grow (hp s) h' -> hsplit (hand s) ks l' -> has h' n KFooter top ->
     runs (cont n) (with_hand (with_hp s h' fs' lg') (n :: l')) Q) ->
  runs (load_footer top old nnew fr ks tag cont) s Q.
Proof.
  intros HG A1 A2 L Hk A3 Hs Hle K. destruct s as [h fs rg hs l lk lg c]. norm.
  unfold load_footer. rstep.
  apply runs_each_addref; [exact HG|exact A1|]. intros h1 l1 lg1 HG1 Hgr1 Hs1. norm. tr_grow Hgr1.
  apply runs_new_mmaps; [exact HG1|exact L|exact Hk|]. intros h2 fs2 l2 lg2 ms HG2 Hgr2 Hs2 Hms. norm.
  tr_grow Hgr2. rstep.
  - destruct Hs as [->| ->]; [left; reflexivity|right; split; [reflexivity|left; reflexivity]].
  - apply K; auto.
    + grow_tac.
    + hand_le.
Qed.

Definition kid_old (oldf : option oid) (keep : bool) (i t : nat) (st : state) : list oid :=
  match oldf with
  | Some f => if keep then match nth_error (kids_of f st) i with
                           | Some cf => if Nat.eqb (tag_of cf st) t then refs_of cf st else []
                           | None => [] end
              else []
  | None => [] end.
Lemma kid_old_facts s oldf keep i t : G s -> okind (hp s) oldf KFooter ->
  alllive (hp s) (kid_old oldf keep i t s) /\ allk (hp s) (kid_old oldf keep i t s) KMmap.
Proof.
  intros HG Hk. unfold kid_old. destruct oldf as [f|]; [|split; [apply alllive_nil|apply allk_nil]].
  destruct keep; [|split; [apply alllive_nil|apply allk_nil]].
  destruct (nth_error (kids_of f s) i) as [cf|] eqn:E; [|split; [apply alllive_nil|apply allk_nil]].
  destruct (Nat.eqb (tag_of cf s) t); [|split; [apply alllive_nil|apply allk_nil]].
  destruct (kid_facts s f KFooter i cf HG E Hk) as [H1 _].
  destruct (refs_facts s cf KFooter HG (has_hask _ _ _ _ H1)) as [A B]. auto.
Qed.

Lemma runs_load_kids tags : forall i oldf keep nnew fr acc cont s (Q : state -> Prop),
  G s -> live (hp s) fr -> hask (hp s) fr KFile -> okind (hp s) oldf KFooter ->
  kont grow KFooter cont acc s Q ->
  runs (load_kids tags i oldf keep nnew fr acc cont) s Q.
Proof.
  induction tags as [|t tags IH]; intros i oldf keep nnew fr acc cont s Q HG L Hk Ho K;
    [exact (kont_nil _ _ _ _ _ _ grow_refl HG K)|].
  destruct s as [h fs rg hs l lk lg c]. simpl load_kids. norm. apply runs_rd. cbv beta.
  destruct (kid_old_facts _ oldf keep i t HG Ho) as [A1 A2].
  apply runs_load_footer; norm; auto.
  - apply allhas_nil.
  - intro x. rewrite cn_nil. lia.
  - intros h1 fs1 l1 lg1 n HG1 Hgr1 Hs1 Hn. norm. tr_grow Hgr1. apply IH; auto. kont_grow K.
Qed.

Lemma runs_plain_kids n : forall acc cont s (Q : state -> Prop), G s ->
  kont grow KStack cont acc s Q -> runs (plain_kids n acc cont) s Q.
Proof.
  induction n as [|n IH]; intros acc cont s Q HG K; [exact (kont_nil _ _ _ _ _ _ grow_refl HG K)|].
  destruct s as [h fs rg hs l lk lg c]. simpl plain_kids. rstep. rstep. apply IH; auto. kont_grow K.
Qed.

Lemma runs_merge_kids cs : forall acc cont s (Q : state -> Prop), G s -> allk (hp s) cs KStack ->
  kont grow KStack cont acc s Q -> runs (merge_kids cs acc cont) s Q.
Proof.
  induction cs as [|c r IH]; intros acc cont s Q HG A K; [exact (kont_nil _ _ _ _ _ _ grow_refl HG K)|].
  destruct s as [h fs rg hs l lk lg c0]. simpl merge_kids. norm.
  assert (Hc : hask h c KStack) by (apply A; left; reflexivity).
  assert (A' : allk h r KStack) by (intros x Hx; apply A; right; exact Hx).
  destruct (first_ref_olist _ c KStack HG Hc) as [Hak Hal]. cbn [ref_kind] in Hak.
  rstep. rstep. rstep. rstep. rstep. apply IH; auto. kont_grow K.
Qed.

Lemma runs_build_kids n : forall i f acc cont s (Q : state -> Prop), G s -> okind (hp s) f KFooter ->
  kont kext KStack cont acc s Q -> runs (build_kids n i f acc cont) s Q.
Proof.
  induction n as [|n IH]; intros i f acc cont s Q HG Ho K; [exact (kont_nil _ _ _ _ _ _ kext_refl HG K)|].
  destruct s as [h fs rg hs l lk lg c]. simpl build_kids. norm.
  assert (Fin : forall h2 fs2 lg2 n0 l1, kext h h2 -> has h2 n0 KStack false ->
            hsplit l1 [n0] l ->
            G (mkState h2 fs2 rg hs l1 lk lg2 c) -> okind h2 f KFooter ->
            runs (build_kids n (S i) f (acc ++ [n0]) cont) (mkState h2 fs2 rg hs l1 lk lg2 c) Q).
  { intros h2 fs2 lg2 n0 l1 Kx Hn Hs HG2 Ho2. apply IH; auto.
    eapply (kont_snoc kext _ _ _ _ _ _ _ kext_trans (fun a b H => H) K); auto; reflexivity. }
  rstep. rstep. destruct f as [fo|]; norm.
  - rstep.
    + rstep. rstep. rstep. rstep.
      * rstep. rstep. eapply Fin; eauto; [kext_tac|hand_le].
      * rstep. rstep. rstep. eapply Fin; eauto; [kext_tac|hand_le].
    + rstep. eapply Fin; eauto; [kext_tac|hand_le].
  - rstep. eapply Fin; eauto; [kext_tac|hand_le].
Qed.

Lemma runs_snapshot_build cont s (Q : state -> Prop) : G s ->
  (forall h' fs' l' lg' rv,
     G (with_hand (with_hp s h' fs' lg') (rv :: l')) ->
     kext (hp s) h' -> hbal l' [] (hand s) -> has h' rv KStack true ->
     runs (cont rv) (with_hand (with_hp s h' fs' lg') (rv :: l')) Q) ->
  runs (snapshot_build cont) s Q.
Proof.
  intros HG K. destruct s as [h fs rg hs l lk lg c]. norm. unfold snapshot_build.
  assert (Fin : forall f h1 l1 lg1 w, G (mkState h1 fs rg hs l1 lk lg1 c) -> kext h h1 ->
            okind h1 f KFooter -> allk h1 w KWrap -> length w <= 1 -> hsplit l1 w l ->
            runs (build_kids (nch c) 0 f [] (fun ks => alloc_k KStack true w ks 0 cont))
                 (mkState h1 fs rg hs l1 lk lg1 c) Q).
  { intros f h1 l1 lg1 w HG1 Kx1 Hf Hw Hl Hs1. apply runs_build_kids; [assumption|assumption|].
    intros h2 fs2 l2 lg2 ks HG2 Kx Hs2 Hks. norm. tr_kext Kx. rstep.
    apply K; auto; [kext_tac|hand_le]. }
  rstep. rstep. rstep.
  - rstep. rstep. rstep. apply Fin; auto.
    + kext_tac.
    + match goal with |- okind _ ?x _ => destruct x as [f0|] eqn:E0; [derive E0; assumption|exact I] end.
    + allk_tac.
    + hand_le.
  - apply Fin; auto; [apply kext_refl|exact I|apply allk_nil|hand_le].
Qed.

(* startOrReuseFile: the file reference comes from the footer, from a child footer or is new;
   what follows sees one post-state *)
Lemma runs_start_or_reuse cont s (Q : state -> Prop) : G s ->
  (forall h' fs' l' lg' c' fr,
     G (mkState h' fs' (regs s) (handles s) l' (leaked s) lg' c') ->
     kext (hp s) h' -> (forall o rs ks, holds (hp s) o rs ks -> live h' o -> holds h' o rs ks) ->
     hsplit l' [fr] (hand s) -> hask h' fr KFile ->
     nch c' = nch (ct s) -> mph c' = mph (ct s) -> pph c' = pph (ct s) -> pbase c' = pbase (ct s) ->
     copen c' = copen (ct s) -> sopen c' = sopen (ct s) -> inc c' = inc (ct s) ->
     runs (cont fr) (mkState h' fs' (regs s) (handles s) l' (leaked s) lg' c') Q) ->
  runs (start_or_reuse cont) s Q.
Proof.
  intros HG K. destruct s as [h fs rg hs l lk lg c]. norm. unfold start_or_reuse.
  rgo; (apply K; auto; [kext_tac| |hand_le]); intros o1 rs1 ks1 Hh1 Hl1;
    repeat first [ exact Hh1 | eapply holds_dec; [eassumption|exact Hl1|]
                 | eapply holds_grow; [eassumption|] ].
Qed.

Ltac kont_intro HG :=
  let Hgr := fresh "Hgr" in let HG' := fresh "HG" in let Hs := fresh "Hs" in let Hks := fresh "Hks" in
  intros ? ? ? ? ? HG' Hgr Hs Hks; norm; tr_grow Hgr; clear HG.

(* steps that are loops *)
Ltac rstepL :=
  norm;
  lazymatch goal with
  | |- runs (snapshot_build ?cont) ?s _ =>
      withG ltac:(fun HG =>
        apply (runs_snapshot_build cont s _ HG);
        let Kx := fresh "Kx" in let HG' := fresh "HG" in let Hb := fresh "Hb" in
        let Hh := fresh "Hhas" in let Hk := fresh "Hk" in
        intros ? ? ? ? ? HG' Kx Hb Hh; norm; tr_kext Kx;
        pose proof (has_hask _ _ _ _ Hh) as Hk; clear HG)
  | |- runs (plain_kids ?n ?acc ?cont) ?s _ =>
      withG ltac:(fun HG => apply (runs_plain_kids n acc cont s _ HG); kont_intro HG)
  | |- runs (merge_kids ?cs ?acc ?cont) ?s _ =>
      withG ltac:(fun HG =>
        apply (runs_merge_kids cs acc cont s _ HG); [ norm; try solve [allk_tac] | kont_intro HG ])
  | |- runs (load_kids ?tags ?i ?oldf ?keep ?nnew ?fr ?acc ?cont) ?s _ =>
      withG ltac:(fun HG =>
        apply (runs_load_kids tags i oldf keep nnew fr acc cont s _ HG);
        [ try solve [live_tac]
        | norm; try solve [hask_tac]
        | norm; try solve [exact I | hask_tac]
        | kont_intro HG ])
  | |- runs (load_footer ?top ?old ?nnew ?fr ?ks ?tag ?cont) ?s _ =>
      withG ltac:(fun HG =>
        apply (runs_load_footer top old nnew fr ks tag cont s _ HG);
        [ norm; try solve [alllive_tac]
        | norm; try solve [allk_tac]
        | try solve [live_tac]
        | norm; try solve [hask_tac]
        | norm; try solve [allhas_tac]
        | try solve [left; reflexivity | right; reflexivity]
        | norm; try solve [hand_le]
        | let Hgr := fresh "Hgr" in let HG' := fresh "HG" in let Hs := fresh "Hs" in
          let Hh := fresh "Hhas" in let Hk := fresh "Hk" in
          intros ? ? ? ? ? HG' Hgr Hs Hh; norm; tr_grow Hgr;
          pose proof (has_hask _ _ _ _ Hh) as Hk; clear HG ])
  | |- runs (each ?ms addref) ?s _ =>
      withG ltac:(fun HG =>
        apply (runs_each_addref ms s _ HG);
        [ norm; try solve [alllive_tac]
        | let Hgr := fresh "Hgr" in let HG' := fresh "HG" in let Hs := fresh "Hs" in
          intros ? ? ? HG' Hgr Hs; norm; tr_grow Hgr; clear HG ])
  | |- runs (check (none_at ?l)) _ _ =>
      apply runs_check;
      [ norm; unfold none_at, coll_slots;
        cbn [forallb regs rset slot_eqb]; rewrite_known; try reflexivity | ]
  | |- runs (rd (first_ref ?b) _) ?s _ =>
      withG ltac:(fun HG =>
        try match goal with
            | Hb : hask _ b KStack |- _ =>
                let H1 := fresh "Hho" in
                let H2 := fresh "Hak" in let H3 := fresh "Hal" in
                pose proof (holds_of s b KStack HG Hb) as H1;
                rewrite (refs_olist s b HG Hb) in H1;
                destruct (first_ref_olist s b KStack HG Hb) as [H2 H3]; cbn [ref_kind] in H2
            end);
      apply runs_rd; cbv beta
  | |- runs (rd (refs_of ?f) _) ?s _ =>
      withG ltac:(fun HG =>
        try match goal with
            | Hf : hask _ f ?k |- _ =>
                let H1 := fresh "Hho" in let H2 := fresh "Hak" in
                pose proof (holds_of s f k HG Hf) as H1;
                pose proof (proj1 (refs_facts s f k HG Hf)) as H2; cbn [ref_kind] in H2
            end);
      apply runs_rd; cbv beta
  | |- runs (ll_iter _ _) _ _ => unfold ll_iter
  | |- runs (start_or_reuse ?cont) ?s _ =>
      withG ltac:(fun HG =>
        apply (runs_start_or_reuse cont s _ HG);
        let Kx := fresh "Kx" in let HG' := fresh "HG" in let Hs := fresh "Hs" in
        let Hk := fresh "Hk" in
        let Kh := fresh "Kh" in
        intros ? ? ? ? ? ? HG' Kx Kh Hs Hk ? ? ? ? ? ? ?; norm; tr_kext Kx;
        repeat match goal with
               | H : holds ?h0 _ _ _ |- _ =>
                   match type of Kx with kext h0 _ => apply Kh in H; [|solve [live_tac]] end
               end;
        clear HG Kh)
  | |- _ => rstep
  end.
Ltac go := repeat rstepL.
Ltac gof := go; try fin.

Definition ok (m : M) : Prop := forall s, Good s -> runs (m ;; finish) s Good.

Ltac start :=
  let HG := fresh "HG" in let Hh := fresh "Hh" in let HC := fresh "HC" in
  let C1 := fresh "C1" in let C2 := fresh "C2" in
  lazymatch goal with |- ok _ => intro | |- _ => idtac end;
  intros [HG [Hh HC]];
  match goal with |- runs _ ?s _ => destruct s as [h fs rg hs l lk lg c] end;
  let HI := fresh "HI" in assert (HI := HG : Init _);
  norm; match goal with H : ?x = [] |- _ => subst x end; pose proof HC as [C1 C2]; norm.

(* refreshChildLLSnapshots: the child stack c of the new base b gets a new
   lower level, the previous one is closed *)
Lemma refresh_tail c rs prev kc b rsb ksb s (Q : state -> Prop) : G s ->
  regs s SBase = Some b -> holds (hp s) b rsb ksb -> In c ksb -> hask (hp s) b KStack ->
  holds (hp s) c (olist prev) kc -> hle rs (hand s) -> allk (hp s) rs KWrap -> length rs <= 1 ->
  (forall h' fs' l' lg',
     G (with_hand (with_hp s h' fs' lg') l') ->
     kext (hp s) h' -> holds h' b rsb ksb -> hsplit (hand s) rs l' ->
     Q (with_hand (with_hp s h' fs' lg') l')) ->
  runs (setrefs c rs ;; odecref prev) s Q.
Proof.
  intros HG Eb Hb Hc Hkb Hhc Hle Hk Hl K. destruct s as [h fs rg hs l lk lg c0]. norm.
  destruct (holds_kid _ b rsb ksb c KStack HG Hb Hc Hkb) as [Hck [Hcl Hcb]].
  assert (RA : refs_at h c = olist prev).
  { destruct Hhc as [ob [E [A _]]]. unfold refs_at. rewrite E. exact A. }
  apply runs_bind.
  apply (runs_setrefs c rs _ _ HG); norm; auto.
  { eapply has_hask; eauto. }
  intros h1 l1 HG1 Kx1 Hne Hlen Hs1. norm. rewrite RA in *.
  assert (Hb1 : holds h1 b rsb ksb) by (eapply holds_other; eauto).
  unfold odecref. destruct prev as [p|]; norm.
  - rstep. apply K; auto; [kext_tac|hand_le].
  - apply runs_ret. apply K; auto.
Qed.

Lemma runs_refresh_kids cs : forall i f b rsb ksb s (Q : state -> Prop), G s ->
  regs s SBase = Some b -> holds (hp s) b rsb ksb -> incl cs ksb -> hask (hp s) b KStack ->
  okind (hp s) f KFooter ->
  (forall h' fs' l' lg',
     G (with_hand (with_hp s h' fs' lg') l') ->
     kext (hp s) h' -> hbal l' [] (hand s) ->
     Q (with_hand (with_hp s h' fs' lg') l')) ->
  runs (refresh_kids cs i f) s Q.
Proof.
  induction cs as [|c r IH]; intros i f b rsb ksb s Q HG Eb Hb Hin Hkb Hf K;
    destruct s as [h fs rg hs l lk lg c0]; simpl refresh_kids; norm.
  - apply runs_ret. apply K; auto. apply kext_refl. intro x. rewrite cn_nil. lia.
  - assert (Hin' : incl r ksb) by (intros x Hx; apply Hin; right; exact Hx).
    assert (Hc : In c ksb) by (apply Hin; left; reflexivity).
    assert (Rest : forall h2 fs2 l2 lg2, G (mkState h2 fs2 rg hs l2 lk lg2 c0) -> kext h h2 ->
                   holds h2 b rsb ksb -> hbal l2 [] l ->
                   runs (refresh_kids r (S i) f) (mkState h2 fs2 rg hs l2 lk lg2 c0) Q).
    { intros h2 fs2 l2 lg2 HG2 Kx Hb2 Hbal. apply (IH (S i) f b rsb ksb); norm; auto.
      - eapply hask_kext; eauto.
      - eapply okind_kext; eauto.
      - intros h3 fs3 l3 lg3 HG3 Kx3 Hbal3. norm. apply K; auto; [kext_tac|hand_le]. }
    destruct (holds_kid _ b rsb ksb c KStack HG Hb Hc Hkb) as [Hck [Hcl Hcb]].
    pose proof (has_hask _ _ _ _ Hck) as Hck'.
    pose proof (holds_of _ c KStack HG Hck') as Hhc. rewrite (refs_olist _ c HG Hck') in Hhc.
    apply runs_bind. apply runs_rd. cbv beta.
    match goal with |- runs (if ?x then _ else _) _ _ => destruct x end;
      [|apply runs_ret; apply Rest; auto; [apply kext_refl|intro x; rewrite cn_nil; lia]].
    apply runs_rd. cbv beta. apply runs_rd. cbv beta. apply runs_rd. cbv beta. norm.
    assert (Tail0 : runs (setrefs c [];; odecref (first_ref c (mkState h fs rg hs l lk lg c0)))
                         (mkState h fs rg hs l lk lg c0)
                         (fun s1 => runs (refresh_kids r (S i) f) s1 Q)).
    { eapply (refresh_tail c [] _ _ b rsb ksb); norm; eauto.
      - intro x. rewrite cn_nil. lia.
      - apply allk_nil.
      - intros h1 fs1 l1 lg1 HG1 Kx1 Hb1 Hs1. norm. apply Rest; auto. hand_le. }
    destruct f as [fo|]; norm; [|exact Tail0].
    destruct (nth_error (kids_of fo _) i) as [cf|] eqn:Ecf; [|exact Tail0].
    derive Ecf. rstep. rstep. rstep. rstep.
    + (* a new wrapper of the child footer *)
      rstep.
      match goal with HGc : G (mkState ?h2 _ _ _ _ _ _ _) |- _ =>
        eapply (refresh_tail c _ _ _ b rsb ksb); norm; eauto end.
      * hand_le.
      * apply allk_one. assumption.
      * intros h3 fs3 l3 lg3 HG3 Kx3 Hb3 Hs3. norm. apply Rest; auto; [kext_tac|hand_le].
    + (* a prior incarnation: the child footer is closed again *)
      rstep. rstep.
      match goal with
      | HGc : G (mkState ?h2 _ _ _ _ _ _ _), Hd : dec ?h1 ?h2, Hb2 : holds ?h2 b rsb ksb |- _ =>
          destruct (holds_kid _ b rsb ksb c KStack HGc Hb2 Hc ltac:(assumption)) as [_ [Hcl2 _]];
          apply (holds_dec _ _ _ _ _ Hd Hcl2) in Hhc
      end.
      eapply (refresh_tail c [] _ _ b rsb ksb); norm; eauto.
      * hand_le.
      * apply allk_nil.
      * intros h3 fs3 l3 lg3 HG3 Kx3 Hb3 Hs3. norm. apply Rest; auto; [kext_tac|hand_le].
Qed.

Lemma holds_refs_at h a rs ks : holds h a rs ks -> refs_at h a = rs.
Proof. intros [ob [E [A _]]]. unfold refs_at. rewrite E. exact A. Qed.

Ltac do_setrefs :=
  match goal with
  | |- runs (setrefs ?b ?rs) ?s _ =>
      withG ltac:(fun HG =>
        match goal with
        | Hho : holds _ b ?rb _ |- _ =>
            apply (runs_setrefs b rs s _ HG); norm;
            [ try solve [live_tac] | try solve [hask_tac] | try solve [hand_le]
            | try solve [allk_tac] | try solve [simpl; lia]
            | let Kx := fresh "Kx" in let HG' := fresh "HG" in let Hne := fresh "Hne" in
              let Hs := fresh "Hs" in
              intros ? ? HG' Kx Hne _ Hs; norm; rewrite (holds_refs_at _ _ _ _ Hho) in *; norm;
              tr_kext Kx; clear HG ]
        end)
  end.
