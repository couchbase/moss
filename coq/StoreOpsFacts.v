(* StoreOpsFacts.v — proofs about StoreOps.v.  A round is followed on "views"
   of the two files and two Footer objects it touches (StoreCrash.v gives the
   round as a program of primitives); what holds of the views holds of the states. *)
From Coq Require Import List Arith Bool Lia.
From Moss Require Import ListFacts StoreOps StoreCrash.
Import ListNotations.

Fixpoint desc (l : list dfoot) : Prop :=
  match l with
  | [] => True
  | d :: r => (forall e, In e r -> d_id e < d_id d) /\ desc r
  end.

Definition cur (st : state) : fobj := objs st (s_cur st).

Record Inv (n : nat) (st : state) : Prop := {
  i_same : l_cur st = s_cur st;
  i_curlt : s_cur st < next_id st;
  i_crefs : o_refs (cur st) = 2;
  i_orefs : forall j, j <> s_cur st -> o_refs (objs st j) = 0;
  i_frefs : forall i, f_refs (files st i) =
                      match o_file (cur st) with
                      | Some f => if i =? f then 1 else 0
                      | None => 0
                      end;
  i_fresh : forall i, nfiles st <= i -> files st i = no_file;
  i_doom : forall i, f_doomed (files st i) = true -> f_exists (files st i) = false;
  i_served : match o_file (cur st) with
             | Some f => f < nfiles st /\ f_exists (files st f) = true /\
                         f_header (files st f) = true /\ f_doomed (files st f) = false /\
                         In {| d_id := s_cur st; d_content := o_content (cur st) |}
                            (f_footers (files st f))
             | None => True
             end;
  i_nodup : NoDup (o_content (cur st) ++ dirty st);
  i_idlt : forall x, In x (o_content (cur st) ++ dirty st) -> x < n;
  i_dids : forall i d, In d (f_footers (files st i)) -> d_id d < next_id st;
  i_orph : forall i d, In d (f_footers (files st i)) -> s_cur st < d_id d ->
                       d_content d = o_content (cur st) ++ dirty st /\ dirty st <> [];
  i_desc : forall i, desc (f_footers (files st i));
  i_ofresh : forall j, next_id st <= j -> objs st j = no_obj
}.

Lemma Inv_init : Inv 0 init.
Proof.
  constructor; unfold cur; simpl; auto; try lia;
    try (intros; contradiction); try constructor.
  - intros j Hj. destruct (Nat.eqb_spec j 0); [lia|reflexivity].
  - intros j Hj. destruct (Nat.eqb_spec j 0); [lia|reflexivity].
Qed.

Definition pick {A} (sel : bool) (x y : A) : A := if sel then y else x.

Record vobj := { vo_file : option bool; vo_content : list nat; vo_refs : nat }.

Record vw := {
  vf : file; vg : file; vc : vobj; vn : vobj;
  w_nf : nat; w_sc : bool; w_lc : bool; w_dirty : list nat; w_id : nat
}.

Definition robj (f g : nat) (vx : vobj) (x : fobj) : Prop :=
  o_file x = option_map (fun b : bool => pick b f g) (vo_file vx) /\
  o_content x = vo_content vx /\ o_refs x = vo_refs vx.

Record matches (b : state) (f g c m : nat) (v : vw) (s : state) : Prop := {
  m_f : files s f = vf v;
  m_g : files s g = vg v;
  m_fr : forall i, i <> f -> i <> g -> files s i = files b i;
  m_c : robj f g (vc v) (objs s c);
  m_n : robj f g (vn v) (objs s m);
  m_or : forall j, j <> c -> j <> m -> objs s j = objs b j;
  m_nf : nfiles s = w_nf v;
  m_sc : s_cur s = pick (w_sc v) c m;
  m_lc : l_cur s = pick (w_lc v) c m;
  m_d : dirty s = w_dirty v;
  m_id : next_id s = w_id v
}.

Definition v_setf (sel : bool) (v : vw) (x : file) : vw :=
  {| vf := if sel then vf v else x; vg := if sel then x else vg v; vc := vc v; vn := vn v;
     w_nf := w_nf v; w_sc := w_sc v; w_lc := w_lc v; w_dirty := w_dirty v; w_id := w_id v |}.
Definition v_seto (sel : bool) (v : vw) (x : vobj) : vw :=
  {| vf := vf v; vg := vg v; vc := if sel then vc v else x; vn := if sel then x else vn v;
     w_nf := w_nf v; w_sc := w_sc v; w_lc := w_lc v; w_dirty := w_dirty v; w_id := w_id v |}.
Definition v_map_file (sel : bool) (F : file -> file) (v : vw) : vw :=
  v_setf sel v (F (pick sel (vf v) (vg v))).
Definition v_map_obj (sel : bool) (G : vobj -> vobj) (v : vw) : vw :=
  v_seto sel v (G (pick sel (vc v) (vn v))).
Definition vobj_inc (x : vobj) : vobj :=
  {| vo_file := vo_file x; vo_content := vo_content x; vo_refs := S (vo_refs x) |}.
Definition vobj_dec (x : vobj) : vobj :=
  {| vo_file := vo_file x; vo_content := vo_content x; vo_refs := pred (vo_refs x) |}.
Definition v_obj_decref (sel : bool) (v : vw) : vw :=
  let x := pick sel (vc v) (vn v) in
  let v1 := v_map_obj sel vobj_dec v in
  if pred (vo_refs x) =? 0
  then match vo_file x with Some b => v_map_file b file_dec v1 | None => v1 end
  else v1.
Definition v_bump_id (v : vw) : vw :=
  {| vf := vf v; vg := vg v; vc := vc v; vn := vn v;
     w_nf := w_nf v; w_sc := w_sc v; w_lc := w_lc v; w_dirty := w_dirty v; w_id := S (w_id v) |}.
Definition v_bump_nf (v : vw) : vw :=
  {| vf := vf v; vg := vg v; vc := vc v; vn := vn v;
     w_nf := S (w_nf v); w_sc := w_sc v; w_lc := w_lc v; w_dirty := w_dirty v; w_id := w_id v |}.
Definition v_set_sc (sel : bool) (v : vw) : vw :=
  {| vf := vf v; vg := vg v; vc := vc v; vn := vn v;
     w_nf := w_nf v; w_sc := sel; w_lc := w_lc v; w_dirty := w_dirty v; w_id := w_id v |}.
Definition v_set_lc (sel : bool) (v : vw) : vw :=
  {| vf := vf v; vg := vg v; vc := vc v; vn := vn v;
     w_nf := w_nf v; w_sc := w_sc v; w_lc := sel; w_dirty := w_dirty v; w_id := w_id v |}.
Definition v_set_dirty (d : list nat) (v : vw) : vw :=
  {| vf := vf v; vg := vg v; vc := vc v; vn := vn v;
     w_nf := w_nf v; w_sc := w_sc v; w_lc := w_lc v; w_dirty := d; w_id := w_id v |}.

Definition vexec (p : prim) (v : vw) : vw :=
  match p with
  | PFile sel F => v_map_file sel F v
  | PCreate true => v_map_file true (fun _ => fresh_file) v
  | PCreate false => v
  | PObjInc sel => v_map_obj sel vobj_inc v
  | PObjDec sel => v_obj_decref sel v
  | PAlloc tsel ct => v_map_obj true (fun _ => {| vo_file := Some tsel; vo_content := ct; vo_refs := 1 |}) v
  | PBumpId => v_bump_id v
  | PBumpNf => v_bump_nf v
  | PSetSc sel => v_set_sc sel v
  | PSetLc sel => v_set_lc sel v
  | PSetDirty d => v_set_dirty d v
  end.

Definition vtorn (p : prim) (v : vw) : list vw :=
  match p with
  | PCreate _ => [v_map_file true (fun _ => created_file) v]
  | _ => []
  end.

Definition no_file_prim (p : prim) : bool :=
  match p with
  | PCreate false | PObjInc _ | PAlloc _ _ | PBumpId | PSetSc _ | PSetLc _ | PSetDirty _ => true
  | _ => false
  end.

Definition same_files (v v' : vw) : Prop := vf v' = vf v /\ vg v' = vg v /\ w_nf v' = w_nf v.

Lemma no_file_prim_same p v : no_file_prim p = true -> same_files v (vexec p v).
Proof. destruct p as [? ?|[|]|?|?|? ?| | |?|?|?]; try discriminate; repeat split. Qed.

(* R at every crash point of the program run on views, Q at its end *)
Fixpoint vrun_from (R Q : vw -> Prop) (p : list prim) (v : vw) : Prop :=
  match p with
  | [] => Q v
  | x :: r => Forall R (vtorn x v) /\ (if no_file_prim x then True else R (vexec x v)) /\
              vrun_from R Q r (vexec x v)
  end.

Definition vrun (R Q : vw -> Prop) (p : list prim) (v : vw) : Prop := R v /\ vrun_from R Q p v.

Section Sim.
  Variables (b : state) (f g c m : nat).
  Hypothesis Hfg : f <> g.
  Hypothesis Hcm : c <> m.

  Local Notation M := (matches b f g c m).

  Lemma eqb_neq_false x y : x <> y -> (x =? y) = false.
  Proof. apply Nat.eqb_neq. Qed.

  Lemma sim_map_file sel F v s : M v s -> M (v_map_file sel F v) (map_file s (pick sel f g) F).
  Proof.
    intros [H1 H2 H3 H4 H5 H6 H7 H8 H9 H10 H11].
    destruct sel; constructor; simpl; auto; try (intros i Hi Hi');
      rewrite ?Nat.eqb_refl, ?eqb_neq_false by auto; congruence || auto.
  Qed.

  Lemma sim_map_obj sel G Gv v s :
    (forall vx x, robj f g vx x -> robj f g (Gv vx) (G x)) ->
    M v s -> M (v_map_obj sel Gv v) (map_obj s (pick sel c m) G).
  Proof.
    intros HG [H1 H2 H3 H4 H5 H6 H7 H8 H9 H10 H11].
    destruct sel; constructor; simpl; auto; try (intros j Hj Hj');
      rewrite ?Nat.eqb_refl, ?eqb_neq_false by auto; auto.
  Qed.

  Lemma robj_inc vx x : robj f g vx x -> robj f g (vobj_inc vx) (obj_inc x).
  Proof. intros (A & B & C). repeat split; simpl; auto. Qed.
  Lemma robj_dec vx x : robj f g vx x -> robj f g (vobj_dec vx) (obj_dec x).
  Proof. intros (A & B & C). repeat split; simpl; auto. Qed.

  Lemma sim_obj_decref sel v s : M v s -> M (v_obj_decref sel v) (obj_decref s (pick sel c m)).
  Proof.
    intros H. unfold obj_decref, v_obj_decref.
    assert (Hx : robj f g (pick sel (vc v) (vn v)) (objs s (pick sel c m)))
      by (destruct sel; apply H).
    destruct Hx as (A & B & C). rewrite C, A.
    pose proof (sim_map_obj sel obj_dec vobj_dec v s robj_dec H) as H1.
    destruct (pred (vo_refs (pick sel (vc v) (vn v))) =? 0); auto.
    destruct (vo_file (pick sel (vc v) (vn v))) as [t|]; simpl; auto.
    apply (sim_map_file t). exact H1.
  Qed.

  Lemma sim_exec p v s : M v s -> M (vexec p v) (exec f g c m p s).
  Proof.
    intros H. destruct p as [sel F|[|]|sel|sel|tsel ct| | |sel|sel|d]; simpl.
    - apply sim_map_file, H.
    - apply (sim_map_file true), H.
    - exact H.
    - apply sim_map_obj, H. exact robj_inc.
    - apply sim_obj_decref, H.
    - apply (sim_map_obj true), H. intros vx x _. repeat split.
    - destruct H. constructor; simpl; auto.
    - destruct H. constructor; simpl; auto.
    - destruct H. constructor; simpl; auto.
    - destruct H. constructor; simpl; auto.
    - destruct H. constructor; simpl; auto.
  Qed.

  Lemma vrun_sound (R Q : vw -> Prop) (R' Q' : state -> Prop) :
    (forall v v', same_files v v' -> R v -> R v') ->
    (forall V s, M V s -> R V -> R' s) -> (forall V s, M V s -> Q V -> Q' s) ->
    forall p v s, M v s -> vrun R Q p v ->
      Forall R' (states_of f g c m p s) /\ Q' (exec_all f g c m p s).
  Proof.
    intros HS HR HQ. induction p as [|x r IH]; intros v s HM [Hv Hr].
    - split; [repeat constructor|]; eauto.
    - destruct Hr as (Ht & Hx & Hr).
      assert (Hv' : R (vexec x v)).
      { destruct (no_file_prim x) eqn:E; [|exact Hx]. apply (HS v); [apply no_file_prim_same, E|exact Hv]. }
      destruct (IH _ _ (sim_exec x v s HM) (conj Hv' Hr)) as [A B].
      split; [|exact B].
      change (states_of f g c m (x :: r) s)
        with (s :: torn g x s ++ states_of f g c m r (exec f g c m x s)).
      constructor; [eauto|]. apply Forall_app. split; [|exact A].
      destruct x; try constructor; [|constructor].
      inversion Ht; subst. eapply HR; [apply (sim_map_file true), HM|assumption].
  Qed.
End Sim.

Lemma sc_nfiles_map_file s i F : nfiles (map_file s i F) = nfiles s.
Proof. reflexivity. Qed.
Lemma sc_s_cur_map_file s i F : s_cur (map_file s i F) = s_cur s.
Proof. reflexivity. Qed.
Lemma sc_l_cur_map_file s i F : l_cur (map_file s i F) = l_cur s.
Proof. reflexivity. Qed.
Lemma sc_dirty_map_file s i F : dirty (map_file s i F) = dirty s.
Proof. reflexivity. Qed.
Lemma sc_next_id_map_file s i F : next_id (map_file s i F) = next_id s.
Proof. reflexivity. Qed.
Lemma sc_nfiles_map_obj s i G : nfiles (map_obj s i G) = nfiles s.
Proof. reflexivity. Qed.
Lemma sc_s_cur_map_obj s i G : s_cur (map_obj s i G) = s_cur s.
Proof. reflexivity. Qed.
Lemma sc_l_cur_map_obj s i G : l_cur (map_obj s i G) = l_cur s.
Proof. reflexivity. Qed.
Lemma sc_dirty_map_obj s i G : dirty (map_obj s i G) = dirty s.
Proof. reflexivity. Qed.
Lemma sc_next_id_map_obj s i G : next_id (map_obj s i G) = next_id s.
Proof. reflexivity. Qed.
Lemma sc_nfiles_file_addref s i : nfiles (file_addref s i) = nfiles s.
Proof. reflexivity. Qed.
Lemma sc_s_cur_file_addref s i : s_cur (file_addref s i) = s_cur s.
Proof. reflexivity. Qed.
Lemma sc_l_cur_file_addref s i : l_cur (file_addref s i) = l_cur s.
Proof. reflexivity. Qed.
Lemma sc_dirty_file_addref s i : dirty (file_addref s i) = dirty s.
Proof. reflexivity. Qed.
Lemma sc_next_id_file_addref s i : next_id (file_addref s i) = next_id s.
Proof. reflexivity. Qed.
Lemma sc_nfiles_file_decref s i : nfiles (file_decref s i) = nfiles s.
Proof. reflexivity. Qed.
Lemma sc_s_cur_file_decref s i : s_cur (file_decref s i) = s_cur s.
Proof. reflexivity. Qed.
Lemma sc_l_cur_file_decref s i : l_cur (file_decref s i) = l_cur s.
Proof. reflexivity. Qed.
Lemma sc_dirty_file_decref s i : dirty (file_decref s i) = dirty s.
Proof. reflexivity. Qed.
Lemma sc_next_id_file_decref s i : next_id (file_decref s i) = next_id s.
Proof. reflexivity. Qed.
Lemma sc_nfiles_sync_file s i : nfiles (sync_file s i) = nfiles s.
Proof. reflexivity. Qed.
Lemma sc_s_cur_sync_file s i : s_cur (sync_file s i) = s_cur s.
Proof. reflexivity. Qed.
Lemma sc_l_cur_sync_file s i : l_cur (sync_file s i) = l_cur s.
Proof. reflexivity. Qed.
Lemma sc_dirty_sync_file s i : dirty (sync_file s i) = dirty s.
Proof. reflexivity. Qed.
Lemma sc_next_id_sync_file s i : next_id (sync_file s i) = next_id s.
Proof. reflexivity. Qed.
Lemma sc_nfiles_add_footer s i d : nfiles (add_footer s i d) = nfiles s.
Proof. reflexivity. Qed.
Lemma sc_s_cur_add_footer s i d : s_cur (add_footer s i d) = s_cur s.
Proof. reflexivity. Qed.
Lemma sc_l_cur_add_footer s i d : l_cur (add_footer s i d) = l_cur s.
Proof. reflexivity. Qed.
Lemma sc_dirty_add_footer s i d : dirty (add_footer s i d) = dirty s.
Proof. reflexivity. Qed.
Lemma sc_next_id_add_footer s i d : next_id (add_footer s i d) = next_id s.
Proof. reflexivity. Qed.
Lemma sc_nfiles_obj_addref s i : nfiles (obj_addref s i) = nfiles s.
Proof. reflexivity. Qed.
Lemma sc_s_cur_obj_addref s i : s_cur (obj_addref s i) = s_cur s.
Proof. reflexivity. Qed.
Lemma sc_l_cur_obj_addref s i : l_cur (obj_addref s i) = l_cur s.
Proof. reflexivity. Qed.
Lemma sc_dirty_obj_addref s i : dirty (obj_addref s i) = dirty s.
Proof. reflexivity. Qed.
Lemma sc_next_id_obj_addref s i : next_id (obj_addref s i) = next_id s.
Proof. reflexivity. Qed.
Lemma sc_nfiles_bump_id s : nfiles (bump_id s) = nfiles s.
Proof. reflexivity. Qed.
Lemma sc_s_cur_bump_id s : s_cur (bump_id s) = s_cur s.
Proof. reflexivity. Qed.
Lemma sc_l_cur_bump_id s : l_cur (bump_id s) = l_cur s.
Proof. reflexivity. Qed.
Lemma sc_dirty_bump_id s : dirty (bump_id s) = dirty s.
Proof. reflexivity. Qed.
Lemma sc_next_id_bump_id s : next_id (bump_id s) = S (next_id s).
Proof. reflexivity. Qed.
Lemma sc_nfiles_bump_nfiles s : nfiles (bump_nfiles s) = S (nfiles s).
Proof. reflexivity. Qed.
Lemma sc_s_cur_bump_nfiles s : s_cur (bump_nfiles s) = s_cur s.
Proof. reflexivity. Qed.
Lemma sc_l_cur_bump_nfiles s : l_cur (bump_nfiles s) = l_cur s.
Proof. reflexivity. Qed.
Lemma sc_dirty_bump_nfiles s : dirty (bump_nfiles s) = dirty s.
Proof. reflexivity. Qed.
Lemma sc_next_id_bump_nfiles s : next_id (bump_nfiles s) = next_id s.
Proof. reflexivity. Qed.
Lemma sc_nfiles_set_scur s i : nfiles (set_scur s i) = nfiles s.
Proof. reflexivity. Qed.
Lemma sc_s_cur_set_scur s i : s_cur (set_scur s i) = i.
Proof. reflexivity. Qed.
Lemma sc_l_cur_set_scur s i : l_cur (set_scur s i) = l_cur s.
Proof. reflexivity. Qed.
Lemma sc_dirty_set_scur s i : dirty (set_scur s i) = dirty s.
Proof. reflexivity. Qed.
Lemma sc_next_id_set_scur s i : next_id (set_scur s i) = next_id s.
Proof. reflexivity. Qed.
Lemma sc_nfiles_set_lcur s i : nfiles (set_lcur s i) = nfiles s.
Proof. reflexivity. Qed.
Lemma sc_s_cur_set_lcur s i : s_cur (set_lcur s i) = s_cur s.
Proof. reflexivity. Qed.
Lemma sc_l_cur_set_lcur s i : l_cur (set_lcur s i) = i.
Proof. reflexivity. Qed.
Lemma sc_dirty_set_lcur s i : dirty (set_lcur s i) = dirty s.
Proof. reflexivity. Qed.
Lemma sc_next_id_set_lcur s i : next_id (set_lcur s i) = next_id s.
Proof. reflexivity. Qed.
Lemma sc_nfiles_set_dirty s d : nfiles (set_dirty s d) = nfiles s.
Proof. reflexivity. Qed.
Lemma sc_s_cur_set_dirty s d : s_cur (set_dirty s d) = s_cur s.
Proof. reflexivity. Qed.
Lemma sc_l_cur_set_dirty s d : l_cur (set_dirty s d) = l_cur s.
Proof. reflexivity. Qed.
Lemma sc_dirty_set_dirty s d : dirty (set_dirty s d) = d.
Proof. reflexivity. Qed.
Lemma sc_next_id_set_dirty s d : next_id (set_dirty s d) = next_id s.
Proof. reflexivity. Qed.
Lemma obj_decref_scalars s i :
  nfiles (obj_decref s i) = nfiles s /\ s_cur (obj_decref s i) = s_cur s /\
  l_cur (obj_decref s i) = l_cur s /\ dirty (obj_decref s i) = dirty s /\
  next_id (obj_decref s i) = next_id s.
Proof.
  unfold obj_decref. destruct (pred (o_refs (objs s i)) =? 0); [destruct (o_file (objs s i))|];
    repeat split.
Qed.
Lemma sc_nfiles_obj_decref s i : nfiles (obj_decref s i) = nfiles s.
Proof. apply obj_decref_scalars. Qed.
Lemma sc_s_cur_obj_decref s i : s_cur (obj_decref s i) = s_cur s.
Proof. apply obj_decref_scalars. Qed.
Lemma sc_l_cur_obj_decref s i : l_cur (obj_decref s i) = l_cur s.
Proof. apply obj_decref_scalars. Qed.
Lemma sc_dirty_obj_decref s i : dirty (obj_decref s i) = dirty s.
Proof. apply obj_decref_scalars. Qed.
Lemma sc_next_id_obj_decref s i : next_id (obj_decref s i) = next_id s.
Proof. apply obj_decref_scalars. Qed.
#[local] Hint Rewrite sc_l_cur_map_file sc_l_cur_map_obj sc_l_cur_file_addref sc_l_cur_file_decref sc_l_cur_sync_file sc_l_cur_add_footer sc_l_cur_obj_addref sc_l_cur_bump_id sc_l_cur_bump_nfiles sc_l_cur_set_scur sc_l_cur_set_lcur sc_l_cur_set_dirty sc_l_cur_obj_decref : lcur.

Definition same_meta (x y : file) : Prop :=
  f_exists x = f_exists y /\ f_refs x = f_refs y /\ f_doomed x = f_doomed y /\ f_header x = f_header y.

(* the complete footers of a file after a failed round: unchanged, or one more
   footer, the one the failed round wrote completely (id m, content ct) *)
Definition foot_err (m : nat) (ct : list nat) (id' : nat) (old new : list dfoot) : Prop :=
  new = old \/ (new = {| d_id := m; d_content := ct |} :: old /\ id' = S m).

Definition pending (st : state) : list nat := o_content (cur st) ++ dirty st.

(* LK: under which condition a file created by the failed round may stay in the directory *)
Record ErrStep (LK : Prop) (st st' : state) : Prop := {
  e_sc : s_cur st' = s_cur st;
  e_lc : l_cur st' = l_cur st;
  e_d : dirty st' = dirty st;
  e_nf : nfiles st <= nfiles st';
  e_id : next_id st <= next_id st';
  e_cur : objs st' (s_cur st) = objs st (s_cur st);
  e_orefs : forall j, j <> s_cur st -> o_refs (objs st j) = 0 -> o_refs (objs st' j) = 0;
  e_old : forall i, i < nfiles st ->
          same_meta (files st' i) (files st i) /\
          foot_err (next_id st) (pending st) (next_id st') (f_footers (files st i)) (f_footers (files st' i));
  e_new : forall i, nfiles st <= i ->
          f_refs (files st' i) = 0 /\
          (f_doomed (files st' i) = true -> f_exists (files st' i) = false) /\
          foot_err (next_id st) (pending st) (next_id st') [] (f_footers (files st' i)) /\
          (f_exists (files st' i) = true -> LK);
  e_fresh : forall i, nfiles st' <= i -> files st' i = no_file;
  e_ofresh : forall j, next_id st' <= j -> objs st' j = no_obj
}.

(* sync: the new footer must be durable; LKold: under which condition the
   superseded file of a full compaction may stay in the directory *)
Record OkStep (sync : bool) (LKold : Prop) (st st' : state) : Prop := {
  k_sc : s_cur st' = next_id st;
  k_lc : l_cur st' = next_id st;
  k_d : dirty st' = [];
  k_id : next_id st' = S (next_id st);
  k_nf : nfiles st <= nfiles st';
  k_orefs : forall j, j <> next_id st -> o_refs (objs st j) = 0 \/ j = s_cur st -> o_refs (objs st' j) = 0;
  k_ofresh : forall j, S (next_id st) <= j -> objs st' j = no_obj;
  k_new : exists t,
      objs st' (next_id st) = {| o_file := Some t; o_content := pending st; o_refs := 2 |} /\
      t < nfiles st' /\
      (o_file (cur st) = Some t \/ t = nfiles st) /\
      f_exists (files st' t) = true /\ f_header (files st' t) = true /\
      f_doomed (files st' t) = false /\ f_refs (files st' t) = 1 /\
      f_footers (files st' t) = {| d_id := next_id st; d_content := pending st |} :: f_footers (files st t) /\
      (sync = true -> f_unsynced (files st' t) = []) /\
      (* the other files are untouched, but for the file served before *)
      forall i, i <> t ->
        (o_file (cur st) <> Some i -> files st' i = files st i) /\
        (o_file (cur st) = Some i ->
           f_footers (files st' i) = f_footers (files st i) /\ f_refs (files st' i) = 0 /\
           (f_doomed (files st' i) = true -> f_exists (files st' i) = false) /\
           (f_exists (files st' i) = true -> f_exists (files st i) = true /\ LKold))
}.

Lemma desc_cons_lt (d : dfoot) (l : list dfoot) :
  desc l -> (forall e, In e l -> d_id e < d_id d) -> desc (d :: l).
Proof. simpl; auto. Qed.

Lemma ErrStep_foot LK st st' i d :
  ErrStep LK st st' -> In d (f_footers (files st' i)) ->
  In d (f_footers (files st i)) \/
  (d = {| d_id := next_id st; d_content := pending st |} /\ next_id st' = S (next_id st)).
Proof.
  intros HE Hin. destruct (le_lt_dec (nfiles st) i) as [Hi|Hi].
  - destruct (e_new _ _ _ HE i Hi) as (_ & _ & [E|[E E']] & _); rewrite E in Hin; simpl in Hin.
    + contradiction.
    + destruct Hin as [<-|[]]; auto.
  - destruct (e_old _ _ _ HE i Hi) as (_ & [E|[E E']]); rewrite E in Hin; auto.
    destruct Hin as [<-|Hin]; auto.
Qed.

Lemma Inv_err LK n st st' :
  Inv n st -> ErrStep LK st st' -> (dirty st <> [] \/ next_id st' = next_id st) -> Inv n st'.
Proof.
  intros [Hsame Hclt Hcr Hor Hfr Hfresh Hdoom Hserved Hnodup Hidlt Hdids Horph Hdesc Hofresh] HE Hdn.
  pose proof HE as [Esc Elc Ed Enf Eid Ecur Eor Eold Enew Efresh Eofresh].
  unfold pending, cur in *.
  pose proof (fun i d => ErrStep_foot _ _ _ i d HE) as Hfoot. unfold pending, cur in Hfoot.
  constructor; unfold cur; rewrite ?Esc, ?Elc, ?Ed, ?Ecur.
  - auto.
  - lia.
  - auto.
  - intros j Hj. apply Eor; auto.
  - intros i. destruct (le_lt_dec (nfiles st) i) as [Hi|Hi].
    + destruct (Enew i Hi) as (-> & _).
      destruct (o_file (objs st (s_cur st))) as [f|]; auto.
      destruct Hserved as (Hf & _). rewrite (proj2 (Nat.eqb_neq i f)); [auto|lia].
    + destruct (Eold i Hi) as ((_ & -> & _) & _). apply Hfr.
  - auto.
  - intros i. destruct (le_lt_dec (nfiles st) i) as [Hi|Hi].
    + destruct (Enew i Hi) as (_ & H & _). exact H.
    + destruct (Eold i Hi) as ((-> & _ & -> & _) & _). apply Hdoom.
  - destruct (o_file (objs st (s_cur st))) as [f|]; auto.
    destruct Hserved as (Hf & Hex & Hhd & Hnd & Hin).
    destruct (Eold f Hf) as ((-> & _ & -> & ->) & HF).
    repeat split; auto; try lia.
    destruct HF as [->|[-> _]]; simpl; auto.
  - auto.
  - auto.
  - intros i d Hin. destruct (Hfoot i d Hin) as [H|[-> E]].
    + specialize (Hdids i d H). lia.
    + simpl. lia.
  - intros i d Hin Hlt. destruct (Hfoot i d Hin) as [H|[-> E]].
    + apply (Horph i d H Hlt).
    + simpl. split; auto. destruct Hdn as [H|H]; auto. lia.
  - intros i. destruct (le_lt_dec (nfiles st) i) as [Hi|Hi].
    + destruct (Enew i Hi) as (_ & _ & [E|[E E']] & _); rewrite E; simpl; auto.
      split; auto. intros e [].
    + destruct (Eold i Hi) as (_ & [E|[E E']]); rewrite E; auto.
      apply desc_cons_lt; auto. simpl. intros e He. apply (Hdids i e He).
  - auto.
Qed.

Lemma Inv_ok sync LK n st st' :
  Inv n st -> OkStep sync LK st st' -> Inv n st'.
Proof.
  intros [Hsame Hclt Hcr Hor Hfr Hfresh Hdoom Hserved Hnodup Hidlt Hdids Horph Hdesc Hofresh]
         [Ksc Klc Kd Kid Knf Kor Kofresh (t & Kobj & Kt & Ktf & Kex & Khd & Knd & Krf & Kft & Ksy & Kother)].
  unfold pending, cur in *.
  (* a file other than t is as it was, or it is the file served before, now closed *)
  assert (Hcase : forall i, i <> t ->
            (o_file (objs st (s_cur st)) <> Some i /\ files st' i = files st i) \/
            (f_footers (files st' i) = f_footers (files st i) /\ f_refs (files st' i) = 0 /\
             (f_doomed (files st' i) = true -> f_exists (files st' i) = false))).
  { intros i Hi. destruct (Kother i Hi) as (K1 & K2).
    destruct (o_file (objs st (s_cur st))) as [f|]; [destruct (Nat.eq_dec f i) as [->|Hfi]|].
    - right. destruct K2 as (A & B & C & _); auto.
    - left. split; [congruence|apply K1; congruence].
    - left. split; [discriminate|apply K1; discriminate]. }
  assert (Hfoot : forall i d, In d (f_footers (files st' i)) -> d_id d < S (next_id st)).
  { intros i d Hin. destruct (Nat.eq_dec i t) as [->|Hi].
    - rewrite Kft in Hin. destruct Hin as [<-|Hin]; simpl; auto.
      specialize (Hdids t d Hin). lia.
    - assert (E : f_footers (files st' i) = f_footers (files st i))
        by (destruct (Hcase i Hi) as [(_ & ->)|(E & _)]; auto).
      rewrite E in Hin. specialize (Hdids i d Hin). lia. }
  constructor; unfold cur; rewrite ?Ksc, ?Klc, ?Kd, ?Kobj, ?Kid; simpl.
  - auto.
  - lia.
  - auto.
  - intros j Hj. apply Kor; auto. destruct (Nat.eq_dec j (s_cur st)); auto.
  - intros i. destruct (Nat.eqb_spec i t) as [->|Hi]; auto.
    destruct (Hcase i Hi) as [(Hn & ->)|(_ & E & _)]; [|exact E].
    rewrite Hfr. destruct (o_file (objs st (s_cur st))) as [f|]; [|reflexivity].
    destruct (Nat.eqb_spec i f) as [->|Hif]; [congruence|reflexivity].
  - (* a file beyond nfiles st' is neither t nor the file served before *)
    intros i Hi. destruct (Kother i ltac:(lia)) as (K1 & _). rewrite K1; [apply Hfresh; lia|].
    destruct (o_file (objs st (s_cur st))) as [f|]; [|discriminate].
    destruct Hserved as (Hf & _). intros [= ->]. lia.
  - intros i Hd. destruct (Nat.eq_dec i t) as [->|Hi]; [congruence|].
    destruct (Hcase i Hi) as [(_ & E)|(_ & _ & E)]; [|auto]. rewrite E in *. auto.
  - repeat split; auto. rewrite Kft. left; reflexivity.
  - rewrite app_nil_r. auto.
  - intros x Hx. rewrite app_nil_r in Hx. auto.
  - auto.
  - intros i d Hin Hlt. specialize (Hfoot i d Hin). lia.
  - intros i. destruct (Nat.eq_dec i t) as [->|Hi].
    + rewrite Kft. apply desc_cons_lt; auto. simpl. intros e He. apply (Hdids t e He).
    + destruct (Hcase i Hi) as [(_ & ->)|(-> & _)]; auto.
  - auto.
Qed.

Lemma Inv_hand_over n st :
  Inv n st -> Inv (S n) (hand_over n st) /\ dirty (hand_over n st) <> [].
Proof.
  intros [Hsame Hclt Hcr Hor Hfr Hfresh Hdoom Hserved Hnodup Hidlt Hdids Horph Hdesc Hofresh].
  unfold hand_over. destruct (dirty st) as [|x r] eqn:Ed.
  - split; [|simpl; discriminate].
    unfold cur in *. rewrite app_nil_r in *.
    constructor; unfold cur; simpl; auto.
    + apply (NoDup_Add (Add_app n (o_content (objs st (s_cur st))) [])). rewrite app_nil_r.
      split; [exact Hnodup|]. intros Hin. specialize (Hidlt _ Hin). lia.
    + intros y Hy. apply in_app_or in Hy. destruct Hy as [Hy|[<-|[]]]; auto. specialize (Hidlt _ Hy). lia.
    + intros i d Hin Hlt. destruct (Horph i d Hin Hlt) as (_ & []). reflexivity.
  - split; [|rewrite Ed; discriminate].
    constructor; unfold cur; rewrite ?Ed; auto. intros y Hy. specialize (Hidlt y Hy). lia.
Qed.

Definition nidP (m : nat) (P : list nat) : dfoot := {| d_id := m; d_content := P |}.

(* what a round may have done, at any point of its run, to the served file
   (x0 before, x now) and to the file it may create (y; nf is nfiles now);
   m / P: id and content of the footer the round may write; sy: the round syncs *)
Definition FilesRel (hasfile sy : bool) (g m : nat) (P : list nat) (x0 x y : file) (nf : nat) : Prop :=
  (nf = g \/ nf = S g) /\
  (f_footers x = f_footers x0 \/ f_footers x = nidP m P :: f_footers x0) /\
  incl (f_unsynced x) (m :: f_unsynced x0) /\
  f_header x = f_header x0 /\
  (f_exists x = true -> f_exists x0 = true) /\
  (f_footers y = [] \/ f_footers y = [nidP m P]) /\
  (nf = g -> f_exists y = false) /\
  (f_exists y = true -> f_footers y <> [] -> f_header y = true) /\
  (* the served file is there, or else the new file is, with its footer durable *)
  (hasfile = true ->
   f_exists x = true \/
   (nf = S g /\ f_exists y = true /\ f_header y = true /\
    f_footers y = [nidP m P] /\ (sy = true -> f_unsynced y = []))).

(* f: the served file (or an untouched index), g: the file this round may create *)
Definition DiskRel (hasfile sy : bool) (st0 : state) (f g m : nat) (P : list nat) (s : state) : Prop :=
  (forall i, i <> f -> i <> g -> files s i = files st0 i) /\
  FilesRel hasfile sy g m P (files st0 f) (files s f) (files s g) (nfiles s).

Section ViewSpec.
  Variables (hasfile : bool) (v0 : vw) (g m : nat) (P : list nat).

  Definition VRel (sy : bool) (V : vw) : Prop :=
    FilesRel hasfile sy g m P (vf v0) (vf V) (vg V) (w_nf V).

  Lemma VRel_same_files sy v v' : same_files v v' -> VRel sy v -> VRel sy v'.
  Proof. intros (A & B & C). unfold VRel. rewrite A, B, C. auto. Qed.

  Definition VErr (LK : Prop) (V : vw) : Prop :=
    w_sc V = false /\ w_lc V = false /\ w_dirty V = w_dirty v0 /\
    g <= w_nf V /\ m <= w_id V /\
    vc V = vc v0 /\ vo_refs (vn V) = 0 /\
    same_meta (vf V) (vf v0) /\
    foot_err m P (w_id V) (f_footers (vf v0)) (f_footers (vf V)) /\
    (hasfile = false -> vf V = no_file) /\
    f_refs (vg V) = 0 /\ (f_doomed (vg V) = true -> f_exists (vg V) = false) /\
    foot_err m P (w_id V) [] (f_footers (vg V)) /\
    (f_exists (vg V) = true -> LK) /\
    (w_nf V <= g -> vg V = no_file) /\
    (w_id V <= m -> vn V = vn v0).

  (* the new Footer object says which file the round wrote to *)
  Definition VOk (sync : bool) (LKold : Prop) (V : vw) : Prop :=
    match vo_file (vn V) with
    | None => False
    | Some tsel =>
    w_sc V = true /\ w_lc V = true /\ w_dirty V = [] /\ w_id V = S m /\ g <= w_nf V /\
    vn V = {| vo_file := Some tsel; vo_content := P; vo_refs := 2 |} /\
    vo_refs (vc V) = 0 /\
    (let T := pick tsel (vf V) (vg V) in
     let T0 := pick tsel (vf v0) (vg v0) in
     f_exists T = true /\ f_header T = true /\ f_doomed T = false /\ f_refs T = 1 /\
     f_footers T = {| d_id := m; d_content := P |} :: f_footers T0 /\
     (sync = true -> f_unsynced T = [])) /\
    (tsel = false -> hasfile = true /\ vg V = vg v0) /\
    (tsel = true -> w_nf V = S g /\
       ((hasfile = false -> vf V = vf v0) /\
        (hasfile = true -> f_refs (vf V) = 0 /\ (f_doomed (vf V) = true -> f_exists (vf V) = false) /\
                  f_footers (vf V) = f_footers (vf v0) /\
                  (f_exists (vf V) = true -> f_exists (vf v0) = true /\ LKold))))
    end.
End ViewSpec.

Definition view0 (F0 : list dfoot) (U0 K D : list nat) (g m : nat) (hasfile : bool) : vw :=
  {| vf := if hasfile
           then {| f_exists := true; f_refs := 1; f_doomed := false; f_header := true;
                   f_footers := F0; f_unsynced := U0 |}
           else no_file;
     vg := no_file;
     vc := {| vo_file := if hasfile then Some false else None; vo_content := K; vo_refs := 2 |};
     vn := {| vo_file := None; vo_content := []; vo_refs := 0 |};
     w_nf := g; w_sc := false; w_lc := false; w_dirty := D; w_id := m |}.

Lemma robj_eq f g vx x y : robj f g vx x -> robj f g vx y -> x = y.
Proof.
  intros (A & B & C) (A' & B' & C'). destruct x, y; simpl in *. congruence.
Qed.

Section Views.
  Variables (n : nat) (st : state).
  Hypothesis HI : Inv n st.

  (* f is the served file, or an index beyond g that no round touches *)
  Let f := served_ix st.
  Let g := nfiles st.
  Let c := s_cur st.
  Let m := next_id st.
  Let h := has_file st.
  Let ct := pending st.
  Let v0 := view0 (f_footers (files st f)) (f_unsynced (files st f)) (o_content (cur st)) (dirty st) g m h.

  Lemma served_cases :
    (h = true /\ f < g /\ o_file (cur st) = Some f) \/ (h = false /\ g < f /\ o_file (cur st) = None).
  Proof.
    pose proof (i_served _ _ HI) as Hs. subst h f g. unfold has_file, served_ix, cur in *.
    destruct (o_file (objs st (s_cur st))); [left|right]; repeat split; [apply Hs|lia].
  Qed.

  Lemma ix_apart : f <> g /\ c < m.
  Proof. split; [destruct served_cases as [(_ & H & _)|(_ & H & _)]; lia|apply (i_curlt _ _ HI)]. Qed.

  Lemma Inv_view0 : matches st f g c m v0 st.
  Proof.
    pose proof (i_frefs _ _ HI f) as Hr. pose proof (i_served _ _ HI) as Hs.
    pose proof (i_crefs _ _ HI) as Hc.
    pose proof (i_fresh _ _ HI g (le_n _)) as Hg. pose proof (i_ofresh _ _ HI m (le_n _)) as Hm.
    subst v0. unfold view0.
    destruct served_cases as [(-> & Hlt & Hcf)|(-> & Hgt & Hcf)]; rewrite Hcf in *;
      constructor; cbn [vf vg vc vn w_nf w_sc w_lc w_dirty w_id pick]; auto.
    - rewrite Nat.eqb_refl in Hr. destruct Hs as (_ & He & Hh & Hd & _).
      destruct (files st f); simpl in *. congruence.
    - repeat split; auto.
    - rewrite Hm. repeat split.
    - apply (i_same _ _ HI).
    - apply (i_fresh _ _ HI). lia.
    - repeat split; auto.
    - rewrite Hm. repeat split.
    - apply (i_same _ _ HI).
  Qed.

  Lemma rel_of_view sy V s :
    matches st f g c m V s -> VRel h v0 g m ct sy V -> DiskRel h sy st f g m ct s.
  Proof.
    intros HM HV. split; [apply HM|].
    rewrite (m_f _ _ _ _ _ _ _ HM), (m_g _ _ _ _ _ _ _ HM), (m_nf _ _ _ _ _ _ _ HM),
            (m_f _ _ _ _ _ _ _ Inv_view0).
    exact HV.
  Qed.

  Let Hfresh := i_fresh _ _ HI.
  Let Hofresh := i_ofresh _ _ HI.
  Let Hl : l_cur st = c := i_same _ _ HI.
  Let Hfg := proj1 ix_apart.
  Let Hcltm := proj2 ix_apart.
  Let H0 := Inv_view0.

  Lemma no_file_iff : h = false <-> g < f.
  Proof. destruct served_cases as [(E & H & _)|(E & H & _)]; rewrite E; split; (discriminate || lia || auto). Qed.
  Lemma has_file_iff : h = true <-> f < g.
  Proof. destruct served_cases as [(E & H & _)|(E & H & _)]; rewrite E; split; (discriminate || lia || auto). Qed.

  Lemma cur_file_f : f < g -> o_file (cur st) = Some f.
  Proof. destruct served_cases as [(_ & _ & E)|(_ & H & _)]; [auto|lia]. Qed.

  Lemma cur_file_none : g < f -> o_file (cur st) = None.
  Proof. destruct served_cases as [(_ & H & _)|(_ & _ & E)]; [lia|auto]. Qed.

  Lemma cur_file_not i : i <> f -> o_file (cur st) <> Some i.
  Proof.
    intros Hi. destruct (lt_dec f g).
    - rewrite cur_file_f by auto. congruence.
    - rewrite cur_file_none by lia. discriminate.
  Qed.

  Lemma err_of_view LK V s' : matches st f g c m V s' -> VErr h v0 g m ct LK V -> ErrStep LK st s'.
  Proof.
    intros M (V1 & V2 & V3 & V4 & V5 & V6 & V7 & V8 & V9 & V10 & V11 & V12 & V13 & V14 & V15 & V16).
    destruct M as [Mf Mg Mfr Mc Mn Mor Mnf Msc Mlc Md Mid].
    destruct H0 as [Nf Ng Nfr Nc Nn Nor Nnf Nsc Nlc Nd Nid].
    rewrite V1 in Msc. rewrite V2 in Mlc. simpl in Msc, Mlc.
    assert (Gno : files st g = no_file) by (apply Hfresh; lia).
    constructor; fold c m g; rewrite ?Hl; try congruence; try lia.
    - rewrite V6 in Mc. apply (robj_eq f g (vc v0)); auto.
    - intros j Hj Hz. destruct (Nat.eq_dec j m) as [->|Hjm].
      + destruct Mn as (_ & _ & ->). auto.
      + rewrite Mor; auto.
    - intros i Hi. destruct (Nat.eq_dec i f) as [->|Hif].
      + rewrite Mf, Nf, Mid. auto.
      + rewrite Mfr; auto; try lia. split; [repeat split|left; reflexivity].
    - intros i Hi. destruct (Nat.eq_dec i g) as [->|Hig].
      + rewrite Mg, Mid. auto.
      + destruct (Nat.eq_dec i f) as [->|Hif].
        * assert (Hgf : h = false) by (apply no_file_iff; lia). rewrite Mf, (V10 Hgf). simpl.
          repeat split; auto; try discriminate. left; reflexivity.
        * rewrite Mfr; auto. rewrite Hfresh by lia. simpl.
          repeat split; auto; try discriminate. left; reflexivity.
    - intros i Hi. rewrite Mnf in Hi. destruct (Nat.eq_dec i g) as [->|Hig].
      + rewrite Mg. apply V15. lia.
      + destruct (Nat.eq_dec i f) as [->|Hif].
        * rewrite Mf. apply V10, no_file_iff. lia.
        * rewrite Mfr; auto. apply Hfresh. lia.
    - intros j Hj. rewrite Mid in Hj. destruct (Nat.eq_dec j m) as [->|Hjm].
      + rewrite <- (Hofresh m) by lia. apply (robj_eq f g (vn v0)); auto.
        rewrite <- V16; auto.
      + rewrite Mor; auto; try lia. apply Hofresh. lia.
  Qed.

  Lemma ok_of_view sync LKold V s' :
    matches st f g c m V s' -> VOk h v0 g m ct sync LKold V -> OkStep sync LKold st s'.
  Proof.
    unfold VOk. intros M HV. destruct (vo_file (vn V)) as [tsel|]; [|contradiction].
    destruct HV as (V1 & V2 & V3 & V4 & V5 & V6 & V7 & VT & VA & VB).
    destruct M as [Mf Mg Mfr Mc Mn Mor Mnf Msc Mlc Md Mid].
    pose proof H0 as [Nf Ng Nfr Nc Nn Nor Nnf Nsc Nlc Nd Nid].
    rewrite V1 in Msc. rewrite V2 in Mlc. simpl in Msc, Mlc.
    constructor; fold c m g; rewrite ?Hl; try congruence; try lia.
    - intros j Hj Hz. destruct (Nat.eq_dec j c) as [->|Hjc].
      + destruct Mc as (_ & _ & ->). auto.
      + rewrite Mor; auto. destruct Hz; congruence.
    - intros j Hj. rewrite Mor; auto; try lia. apply Hofresh. lia.
    - exists (pick tsel f g).
      assert (Eobj : objs s' m = {| o_file := Some (pick tsel f g); o_content := ct; o_refs := 2 |}).
      { rewrite V6 in Mn. destruct Mn as (A & B & C). destruct (objs s' m); simpl in *. congruence. }
      destruct VT as (T1 & T2 & T3 & T4 & T5 & T6).
      destruct tsel; simpl pick in *.
      + destruct VB as (E & VB1 & VB2); auto.
        rewrite Mg, Ng, Mnf.
        do 9 (split; [solve [auto | lia] |]).
        intros i Hi. destruct (Nat.eq_dec i f) as [->|Hif].
        * destruct (lt_dec f g) as [Hlt|Hnlt].
          -- split; [intros Hn; exfalso; apply Hn, cur_file_f; auto|intros _].
             destruct (VB2 (proj2 has_file_iff Hlt)) as (B1 & B2 & B3 & B4).
             rewrite Mf, Nf. auto.
          -- assert (Hgf : g < f) by lia.
             split; [intros _|intros Hy; rewrite cur_file_none in Hy by auto; discriminate].
             rewrite Mf, (VB1 (proj2 no_file_iff Hgf)), Nf. reflexivity.
        * split; [intros _; apply Mfr; auto|intros Hy; destruct (cur_file_not i Hif Hy)].
      + destruct VA as (Hlt & E); auto. apply has_file_iff in Hlt.
        rewrite Mf, Nf, Mnf.
        do 9 (split; [solve [auto | lia | left; apply cur_file_f; auto] |]).
        intros i Hi. split; [intros _|intros Hy; destruct (cur_file_not i Hi Hy)].
        destruct (Nat.eq_dec i g) as [->|Hig]; [rewrite Mg, E, Ng; reflexivity|apply Mfr; auto].
  Qed.
End Views.

Definition sync_req (o : opts) (k : round_kind) : bool :=
  match k with
  | RAppend => negb (noSync o)
  | _ => negb (noSync o && negb (compactionSync o))
  end.

(* a file created by a failed round stays in the directory only if the Stat
   of removeFileOnClose failed, or the round was an append that had to create
   the store's first file (no clean-up in persist) *)
Definition leak_cond (fo : oracle) (n : nat) (st : state) : Prop :=
  fl fo n SRmStat = true \/ o_file (cur st) = None.

Lemma exec_all_app f g c m p q s :
  exec_all f g c m (p ++ q) s = exec_all f g c m q (exec_all f g c m p s).
Proof. revert s. induction p as [|x p IH]; intros s; [reflexivity|apply IH]. Qed.

Definition kind_prog (o : opts) (fo : oracle) (n : nat) (P : list nat) (nid : nat)
           (k : round_kind) (hasfile : bool) : list prim * bool :=
  match prog_kind fo n k hasfile with
  | RAppend => prog_append o fo n P nid hasfile
  | RPartial => prog_compact o fo n P nid false hasfile
  | _ => prog_compact o fo n P nid true hasfile
  end.

(* after a successful Persist the persister takes the new snapshot (persister.go:94-129) *)
Definition with_tail (r : list prim * bool) : list prim :=
  if snd r then fst r ++ [PSetLc true; PSetDirty []; PObjDec false] else fst r.

Lemma round_prog_kind o fo n P nid k h :
  k <> RNoop -> round_prog o fo n P nid k h = with_tail (kind_prog o fo n P nid k h).
Proof. intros Hk. destruct k; [contradiction|reflexivity ..]. Qed.

Definition round_commits (o : opts) (fo : oracle) (n : nat) (P : list nat) (nid : nat)
           (k : round_kind) (hasfile : bool) : bool :=
  match k with RNoop => false | _ => snd (kind_prog o fo n P nid k hasfile) end.

Section Progs.
  Variables (o : opts) (fo : oracle) (n : nat) (st : state).
  Let f := served_ix st.
  Let g := nfiles st.
  Let c := s_cur st.
  Let m := next_id st.
  Let P := round_content st.
  Let h := has_file st.
  Local Notation run := (exec_all f g c m).

  Lemma start_prog (full : bool) :
    let sp := if full then prog_start_file fo n else prog_start_or_reuse fo n h in
    (if full then start_file fo n st else start_or_reuse fo n st) =
    (run (fst sp) st, if snd sp then Some (pk (full || negb h) f g) else None) /\
    next_id (run (fst sp) st) = m /\ l_cur (run (fst sp) st) = l_cur st.
  Proof.
    subst f g c m h. unfold start_or_reuse, start_file, prog_start_or_reuse, prog_start_file, has_file, served_ix.
    destruct full, (o_file (objs st (s_cur st))), (fl fo n SOpen), (fl fo n SHeader); repeat split.
  Qed.

  Lemma persist_footer_prog (ns t : bool) s :
    let pf := prog_footer fo n P m ns t in
    persist_footer ns fo n s (pk t f g) m P = (run (fst pf) s, snd pf) /\
    l_cur (run (fst pf) s) = l_cur s.
  Proof.
    unfold persist_footer, prog_footer.
    destruct ns, (fl fo n SSync1), (fl fo n SFootStat || fl fo n SFootWrite), (fl fo n SSync2); split; reflexivity.
  Qed.

  Definition pres (ok : bool) : presult := if ok then POk m true else PErr false.

  Lemma persist_append_prog :
    let r := prog_append o fo n P m h in
    persist_append o fo n st = (run (fst r) st, pres (snd r)) /\ l_cur (run (fst r) st) = l_cur st.
  Proof.
    unfold persist_append, prog_append.
    destruct (start_prog false) as (-> & Hid & Hl). cbv beta iota zeta in *.
    destruct (prog_start_or_reuse fo n h) as [p0 [|]]; cbn [fst snd negb orb]; [|auto].
    cbn [fst] in Hid, Hl. rewrite Hid. change (o_content (objs st (s_cur st)) ++ dirty st) with P.
    destruct (fl fo n SSegStat || fl fo n SSegWrite); cbn [fst snd].
    { rewrite exec_all_app. split; [reflexivity|exact Hl]. }
    destruct (fl fo n SLoadStat || fl fo n SMmap); cbn [fst snd].
    { rewrite exec_all_app. split; [reflexivity|exact Hl]. }
    pose proof (fun s => proj2 (persist_footer_prog (noSync o) (negb h) s)) as Hl'.
    rewrite (proj1 (persist_footer_prog (noSync o) (negb h) _)).
    destruct (prog_footer fo n P m (noSync o) (negb h)) as [pf [|]]; cbn [fst snd];
      cbn [fst] in Hl'; rewrite !exec_all_app; cbn [exec_all exec pk].
    all: split; [reflexivity|].
    all: autorewrite with lcur; rewrite Hl'; autorewrite with lcur; exact Hl.
  Qed.

  Lemma persist_compact_prog full :
    let r := prog_compact o fo n P m full h in
    persist_compact o fo n full st = (run (fst r) st, pres (snd r)) /\ l_cur (run (fst r) st) = l_cur st.
  Proof.
    unfold persist_compact, prog_compact, remove_on_close.
    destruct (start_prog full) as (-> & Hid & Hl). cbv beta iota zeta in *.
    destruct (if full then prog_start_file fo n else prog_start_or_reuse fo n h) as [p0 [|]];
      cbn [fst snd negb] in *; [|auto].
    rewrite Hid. change (o_content (objs st (s_cur st)) ++ dirty st) with P.
    set (t := full || negb h).
    destruct (fl fo n SWStat || (midSync o && fl fo n SWSync) || fl fo n SWData); cbn [fst snd].
    { destruct full, (fl fo n SRmStat); rewrite !exec_all_app; (split; [reflexivity|exact Hl]). }
    pose proof (fun s => proj2 (persist_footer_prog (noSync o && negb (compactionSync o)) t s)) as Hl'.
    rewrite (proj1 (persist_footer_prog (noSync o && negb (compactionSync o)) t _)).
    destruct (prog_footer fo n P m (noSync o && negb (compactionSync o)) t) as [pf [|]];
      cbn [fst snd negb] in *.
    2: { destruct full, (fl fo n SRmStat); rewrite !exec_all_app; cbn [exec_all exec app];
         (split; [reflexivity|]); autorewrite with lcur; rewrite Hl'; exact Hl. }
    destruct (fl fo n SLoadStat || fl fo n SMmap); cbn [fst snd].
    { destruct full, (fl fo n SRmStat); rewrite !exec_all_app; cbn [exec_all exec app];
         (split; [reflexivity|]); autorewrite with lcur; rewrite Hl'; exact Hl. }
    subst t h f. unfold has_file, served_ix in *.
    destruct full, (o_file (objs st (s_cur st))), (fl fo n SRmOldStat);
      rewrite !exec_all_app; cbn [exec_all exec pk orb negb andb app];
      (split; [reflexivity|]); autorewrite with lcur; rewrite Hl'; exact Hl.
  Qed.

  Lemma effective_kind_prog k : effective_kind fo n k st = prog_kind fo n k h.
  Proof. subst h. unfold effective_kind, prog_kind, has_file. destruct k, (o_file (objs st (s_cur st))); reflexivity. Qed.

  Local Notation kp k := (kind_prog o fo n P m k h).

  Lemma store_persist_prog k : k <> RNoop ->
    store_persist o fo n k st = (run (fst (kp k)) st, pres (snd (kp k))) /\
    l_cur (run (fst (kp k)) st) = l_cur st.
  Proof.
    intros Hk. unfold store_persist, kind_prog. rewrite effective_kind_prog.
    destruct (prog_kind fo n k h) eqn:E.
    - destruct k; try contradiction; try discriminate. unfold prog_kind in E. destruct h; [destruct (fl fo n SFragStat)|]; discriminate.
    - apply persist_append_prog.
    - apply (persist_compact_prog false).
    - apply (persist_compact_prog true).
  Qed.

  Lemma body_prog k : k <> RNoop -> l_cur st = s_cur st ->
    let s' := run (round_prog o fo n P m k h) st in
    persister_body o fo n k st =
    (s', {| ro_kind := prog_kind fo n k h; ro_error := negb (snd (kp k));
            ro_onerror := negb (snd (kp k)); ro_committed := snd (kp k);
            ro_handed := dirty st; ro_served := s_cur s'; ro_files := file_list s' |}).
  Proof.
    intros Hk Hsame. unfold persister_body.
    destruct (store_persist_prog k Hk) as (-> & Hl).
    rewrite effective_kind_prog, (round_prog_kind o fo n P m k h Hk). unfold with_tail.
    destruct (snd (kp k)); cbn [pres negb]; [|reflexivity].
    rewrite Hl, Hsame, exec_all_app. reflexivity.
  Qed.
End Progs.

Section Sweep.
  Variables (fo : oracle) (n : nat).
  Variables (F0 : list dfoot) (U0 K D P : list nat) (g m : nat).

  Local Notation view0 := (view0 F0 U0 K D g m).

  Definition views_ok (o : opts) (hasfile : bool) (ek : round_kind) (r : list prim * bool) : Prop :=
    vrun (VRel hasfile (view0 hasfile) g m P (sync_req o ek))
         (fun V => if snd r
                   then VOk hasfile (view0 hasfile) g m P (sync_req o ek) (fl fo n SRmOldStat = true) V
                   else VErr hasfile (view0 hasfile) g m P (fl fo n SRmStat = true \/ hasfile = false) V)
         (with_tail r) (view0 hasfile).

  (* follows the programs' own branching: a boolean option first, else the
     condition as a whole (no specification tells the failing steps of one
     compound condition apart) *)
  Ltac walk :=
    repeat match goal with
    | |- context [if ?b then _ else _] =>
        match b with
        | context [?v] => is_var v; match type of v with bool => idtac end; destruct v
        | fl fo n _ => destruct b
        | _ || _ => destruct b
        | _ && _ => destruct b
        end; cbn [negb andb orb fst snd app]
    end.

  (* runs a program without branches on view0: every view becomes a record of
     literals and of the variables F0 U0 K D P g m *)
  Ltac run_views :=
    cbv [vrun vrun_from no_file_prim vtorn vexec app view0 created_file v_map_file v_map_obj v_obj_decref v_setf v_seto
         v_bump_id v_bump_nf v_set_sc v_set_lc v_set_dirty pick vobj_inc vobj_dec
         vf vg vc vn w_nf w_sc w_lc w_dirty w_id vo_file vo_content vo_refs
         file_inc file_dec file_sync file_addfoot file_doom fresh_file no_file
         f_exists f_refs f_doomed f_header f_footers f_unsynced d_id d_content
         Nat.pred Nat.eqb andb orb negb].

  Ltac view_leaves :=
    repeat match goal with
    | |- _ /\ _ => split
    | |- Forall _ [] => apply Forall_nil
    | |- Forall _ (_ :: _) => apply Forall_cons
    end;
    unfold VRel, FilesRel, VErr, VOk, same_meta, foot_err, nidP;
    cbn [vf vg vc vn w_nf w_sc w_lc w_dirty w_id vo_file vo_content vo_refs pick
         f_exists f_refs f_doomed f_header f_footers f_unsynced d_id d_content];
    repeat match goal with
    | |- _ /\ _ => split
    | |- _ -> _ => intro
    end;
    try solve [ exact I | reflexivity | assumption
              | left; reflexivity | right; reflexivity | right; split; reflexivity
              | left; assumption | right; assumption
              | apply incl_tl, incl_refl | apply incl_nil_l | congruence | lia
              | (let z := fresh "z" in let Hz := fresh "Hz" in intros z Hz; simpl in *; tauto)
              | right; repeat split; solve [reflexivity | congruence | intros; reflexivity | intros; congruence] ].

  Lemma append_views o hasfile :
    views_ok o hasfile RAppend (prog_append o fo n P m hasfile).
  Proof.
    destruct o as [ns cs ms kf].
    unfold views_ok, with_tail, prog_append, prog_start_or_reuse, prog_start_file, prog_footer, sync_req.
    cbn [noSync compactionSync midSync].
    destruct hasfile; cbn [negb andb orb fst snd app].
    all: walk; run_views; view_leaves.
  Qed.

  Lemma compact_views o full hasfile :
    (full = false -> hasfile = true) ->
    views_ok o hasfile (if full then RFull else RPartial)
             (prog_compact o fo n P m full hasfile).
  Proof.
    intros Hfh. destruct o as [ns cs ms kf].
    unfold views_ok, with_tail, prog_compact, prog_start_or_reuse, prog_start_file, prog_footer, sync_req.
    cbn [noSync compactionSync midSync].
    set (nsx := ns && negb cs). clearbody nsx.
    destruct full, hasfile; try (discriminate (Hfh eq_refl)); cbn [negb andb orb fst snd app].
    all: walk; run_views; view_leaves.
  Qed.

  Lemma noop_views hasfile sy LK :
    vrun (VRel hasfile (view0 hasfile) g m P sy) (VErr hasfile (view0 hasfile) g m P LK)
         [PObjInc false; PObjDec false] (view0 hasfile).
  Proof.
    destruct hasfile; run_views; view_leaves.
  Qed.

  Lemma round_views o k hasfile :
    vrun (VRel hasfile (view0 hasfile) g m P (sync_req o (prog_kind fo n k hasfile)))
         (fun V => if round_commits o fo n P m k hasfile
                   then VOk hasfile (view0 hasfile) g m P (sync_req o (prog_kind fo n k hasfile))
                            (fl fo n SRmOldStat = true) V
                   else VErr hasfile (view0 hasfile) g m P (fl fo n SRmStat = true \/ hasfile = false) V)
         (round_prog o fo n P m k hasfile) (view0 hasfile).
  Proof.
    destruct k; [apply noop_views| | |];
      (rewrite round_prog_kind by discriminate); unfold round_commits, kind_prog; cbn [prog_kind].
    - apply append_views.
    - destruct hasfile; [destruct (fl fo n SFragStat)|].
      + apply (compact_views o true true). discriminate.
      + apply (compact_views o false true). reflexivity.
      + apply append_views.
    - apply (compact_views o true hasfile). discriminate.
  Qed.
End Sweep.

Lemma round_kind_eq_dec (a b : round_kind) : {a = b} + {a <> b}.
Proof. decide equality. Qed.

Lemma ErrStep_weaken (LK LK' : Prop) st st' : (LK -> LK') -> ErrStep LK st st' -> ErrStep LK' st st'.
Proof.
  intros H [Esc Elc Ed Enf Eid Ecur Eor Eold Enew Efresh Eofresh]. constructor; auto.
  intros i Hi. destruct (Enew i Hi) as (A & B & C & D). auto 6.
Qed.

Lemma DiskRel_weaken h (sy sy' : bool) st f g m P s :
  (sy' = true -> sy = true) -> DiskRel h sy st f g m P s -> DiskRel h sy' st f g m P s.
Proof.
  intros H (R0 & R1 & R2 & R3 & R4 & R5 & R6 & R7 & R8 & R9). repeat split; auto.
  intros Hh. destruct (R9 Hh) as [A|(A & B & C & D & E)]; auto 10.
Qed.

Lemma sync_req_syncing o k : noSync o = false -> sync_req o k = true.
Proof. intros H. unfold sync_req. rewrite H. destruct k; reflexivity. Qed.

(* every round, started in a state that satisfies the invariant: what the
   directory looks like at each of its crash points, and the class of its result *)
Theorem round_sim o fo n n' k st :
  Inv n' st ->
  let f := served_ix st in let g := nfiles st in let c := s_cur st in let m := next_id st in
  let h := has_file st in let P := round_content st in
  let p := round_prog o fo n P m k h in
  Forall (DiskRel h (sync_req o (prog_kind fo n k h)) st f g m P) (states_of f g c m p st) /\
  (if round_commits o fo n P m k h
   then OkStep (sync_req o (prog_kind fo n k h)) (fl fo n SRmOldStat = true) st (exec_all f g c m p st)
   else ErrStep (leak_cond fo n st) st (exec_all f g c m p st)).
Proof.
  intros HI. cbv zeta. change (round_content st) with (pending st).
  destruct (ix_apart n' st HI) as (Hfg & Hcm).
  refine (vrun_sound st _ _ _ _ Hfg (Nat.lt_neq _ _ Hcm) _ _ _
            (fun s => if round_commits o fo n (pending st) (next_id st) k (has_file st)
                      then OkStep (sync_req o (prog_kind fo n k (has_file st))) (fl fo n SRmOldStat = true) st s
                      else ErrStep (leak_cond fo n st) st s)
            (VRel_same_files _ _ _ _ _ _) (fun V s => rel_of_view n' st HI _ V s) _ _ _ _ (Inv_view0 n' st HI) (round_views _ _ _ _ _ _ _ _ _ _ _ _)).
  intros V s HM. destruct (round_commits o fo n (pending st) (next_id st) k (has_file st)); intros HV.
  - apply (ok_of_view n' st HI _ _ V s HM HV).
  - apply ErrStep_weaken with (2 := err_of_view n' st HI _ V s HM HV).
    intros [A|A]; [left; exact A|right].
    destruct (served_cases n' st HI) as [(E & _)|(_ & _ & E)]; [congruence|exact E].
Qed.

(* the hand-over only fills an empty dirty stack *)
Lemma handed_same n k st :
  files (handed n k st) = files st /\ nfiles (handed n k st) = nfiles st /\
  objs (handed n k st) = objs st /\ s_cur (handed n k st) = s_cur st /\
  l_cur (handed n k st) = l_cur st /\ next_id (handed n k st) = next_id st.
Proof. unfold handed, hand_over. destruct k; [|destruct (dirty st) ..]; repeat split. Qed.

Lemma handed_cur n k st : cur (handed n k st) = cur st.
Proof.
  destruct (handed_same n k st) as (_ & _ & Eo & Es & _). unfold cur. rewrite Eo, Es. reflexivity.
Qed.

Lemma handed_not_noop n k st : k <> RNoop -> handed n k st = hand_over n st.
Proof. destruct k; [contradiction|reflexivity ..]. Qed.

Lemma Inv_mono n n' st : n <= n' -> Inv n st -> Inv n' st.
Proof.
  intros Hle [Hsame Hclt Hcr Hor Hfr Hfresh Hdoom Hserved Hnodup Hidlt Hdids Horph Hdesc Hofresh].
  constructor; auto. intros x Hx. specialize (Hidlt x Hx). lia.
Qed.

Lemma handed_Inv n k st : Inv n st -> Inv (S n) (handed n k st).
Proof.
  intros HI. destruct k; simpl; try apply (Inv_hand_over n st HI).
  apply Inv_mono with n; [lia|exact HI].
Qed.

Lemma outcome_fields o fo n k st :
  let st' := fst (persister_round o fo n k st) in
  let oc := snd (persister_round o fo n k st) in
  ro_onerror oc = ro_error oc /\ ro_served oc = s_cur st' /\
  (k <> RNoop -> ro_handed oc = dirty (hand_over n st)).
Proof.
  destruct k; cbv zeta.
  - simpl. rewrite sc_s_cur_obj_decref. repeat split. contradiction.
  - simpl. unfold persister_body. destruct (store_persist _ _ _ _ _) as [st1 [c|ret c]]; repeat split.
  - simpl. unfold persister_body. destruct (store_persist _ _ _ _ _) as [st1 [c|ret c]]; repeat split.
  - simpl. unfold persister_body. destruct (store_persist _ _ _ _ _) as [st1 [c|ret c]]; repeat split.
Qed.

Theorem round_class o fo n k st :
  Inv n st ->
  let st0 := handed n k st in
  let st' := fst (persister_round o fo n k st) in
  let oc := snd (persister_round o fo n k st) in
  (ro_committed oc = false /\ (ro_error oc = true \/ k = RNoop) /\
   (dirty st0 <> [] \/ next_id st' = next_id st0) /\ ErrStep (leak_cond fo n st0) st0 st') \/
  (ro_committed oc = true /\ ro_error oc = false /\ k <> RNoop /\
   OkStep (sync_req o (ro_kind oc)) (fl fo n SRmOldStat = true) st0 st').
Proof.
  intros HI st0 st' oc. pose proof (handed_Inv n k st HI) as HI0.
  destruct (round_sim o fo n (S n) k st0 HI0) as (_ & H). cbv zeta in H.
  destruct (round_kind_eq_dec k RNoop) as [->|Hk].
  - left. split; [reflexivity|]. split; [right; reflexivity|]. split; [|exact H].
    right. exact (sc_next_id_obj_decref (obj_addref st (s_cur st)) _).
  - assert (E : persister_round o fo n k st = persister_body o fo n k st0)
      by (destruct k; [contradiction|reflexivity ..]).
    assert (Ec : round_commits o fo n (round_content st0) (next_id st0) k (has_file st0) =
                 snd (kind_prog o fo n (round_content st0) (next_id st0) k (has_file st0)))
      by (destruct k; [contradiction|reflexivity ..]).
    subst st' oc. rewrite E, (body_prog o fo n st0 k Hk (i_same _ _ HI0)). rewrite Ec in H.
    cbv zeta. cbn [fst snd ro_committed ro_error ro_kind].
    destruct (snd (kind_prog _ _ _ _ _ _ _)); [right|left].
    + split; [reflexivity|]. split; [reflexivity|]. split; [exact Hk|exact H].
    + split; [reflexivity|]. split; [left; reflexivity|]. split; [left|exact H].
      subst st0. rewrite (handed_not_noop n k st Hk). apply (Inv_hand_over n st HI).
Qed.

Lemma Inv_round o fo n k st :
  Inv n st -> Inv (S n) (fst (persister_round o fo n k st)).
Proof.
  intros HI. pose proof (handed_Inv n k st HI) as HI0.
  destruct (round_class o fo n k st HI) as [(_ & _ & Hd & HE)|(_ & _ & _ & HO)].
  - apply (Inv_err _ _ _ _ HI0 HE Hd).
  - apply (Inv_ok _ _ _ _ _ HI0 HO).
Qed.

Lemma run_cons o fo n k ks st :
  run o fo n (k :: ks) st =
  (fst (run o fo (S n) ks (fst (persister_round o fo n k st))),
   snd (persister_round o fo n k st) :: snd (run o fo (S n) ks (fst (persister_round o fo n k st)))).
Proof.
  simpl. destruct (persister_round o fo n k st) as [st1 oc]. simpl.
  destruct (run o fo (S n) ks st1). reflexivity.
Qed.

Theorem Inv_run o fo ks : forall n st,
  Inv n st -> Inv (n + length ks) (fst (run o fo n ks st)).
Proof.
  induction ks as [|k ks IH]; intros n st HI.
  - simpl. rewrite Nat.add_0_r. exact HI.
  - rewrite run_cons. simpl fst. simpl length. rewrite Nat.add_succ_r.
    apply (IH (S n)). apply Inv_round; auto.
Qed.

(* every state the persister can reach from an empty directory *)
Definition reachable (o : opts) (fo : oracle) (ks : list round_kind) : state :=
  fst (run o fo 0 ks init).

Corollary Inv_reachable o fo ks : Inv (length ks) (reachable o fo ks).
Proof. apply (Inv_run o fo ks 0 init Inv_init). Qed.

Lemma run_preserves o fo (H : nat -> Prop) (Q : state -> Prop) :
  (forall n k st, Inv n st -> H n -> Q st -> Q (fst (persister_round o fo n k st))) ->
  forall ks n st, Inv n st -> (forall j, n <= j -> j < n + length ks -> H j) ->
    Q st -> Q (fst (run o fo n ks st)).
Proof.
  intros Hstep. induction ks as [|k ks IH]; intros n st HI HH HQ; [exact HQ|].
  rewrite run_cons. simpl fst. apply IH.
  - apply Inv_round, HI.
  - intros j H1 H2. apply HH; simpl; lia.
  - apply Hstep; auto. apply HH; simpl; lia.
Qed.

Lemma run_outcomes o fo (Q : round_outcome -> Prop) :
  (forall n k st, Inv n st -> Q (snd (persister_round o fo n k st))) ->
  forall ks n st, Inv n st -> Forall Q (snd (run o fo n ks st)).
Proof.
  intros Hstep. induction ks as [|k ks IH]; intros n st HI; [constructor|].
  rewrite run_cons. simpl snd. constructor; [apply Hstep, HI|apply IH, Inv_round, HI].
Qed.

Lemma ErrStep_cur LK st st' : ErrStep LK st st' -> cur st' = cur st.
Proof. intros H. unfold cur. rewrite (e_sc _ _ _ H). apply (e_cur _ _ _ H). Qed.

Lemma ErrStep_exists LK st st' i :
  ErrStep LK st st' -> f_exists (files st' i) = true -> f_exists (files st i) = true \/ LK.
Proof.
  intros H Hex. destruct (le_lt_dec (nfiles st) i) as [Hi|Hi].
  - right. apply (e_new _ _ _ H i Hi), Hex.
  - left. destruct (e_old _ _ _ H i Hi) as ((E & _) & _). rewrite <- E. exact Hex.
Qed.

Lemma OkStep_served sy LK st st' :
  OkStep sy LK st st' ->
  exists t, cur st' = {| o_file := Some t; o_content := pending st; o_refs := 2 |} /\
    (o_file (cur st) = Some t \/ t = nfiles st) /\
    f_exists (files st' t) = true /\ f_doomed (files st' t) = false /\
    In {| d_id := s_cur st'; d_content := pending st |} (f_footers (files st' t)) /\
    (sy = true -> f_unsynced (files st' t) = []) /\
    forall i, f_exists (files st' i) = true ->
      i = t \/ (f_exists (files st i) = true /\ (o_file (cur st) = Some i -> LK)).
Proof.
  intros [Ksc Klc Kd Kid Knf Kor Kofresh
            (t & Kobj & Kt & Ktf & Kex & Khd & Knd & Krf & Kft & Ksy & Kother)].
  exists t. unfold cur at 1. rewrite Ksc, Kobj, Kft. repeat split; auto.
  - left. reflexivity.
  - intros i Hex. destruct (Nat.eq_dec i t) as [->|Hi]; [left; reflexivity|right].
    destruct (Kother i Hi) as (K1 & K2).
    assert (Hd : o_file (cur st) = Some i \/ o_file (cur st) <> Some i)
      by (destruct (o_file (cur st)) as [x|]; [destruct (Nat.eq_dec x i); [left|right]; congruence|right; discriminate]).
    destruct Hd as [Hs|Hs].
    + destruct (K2 Hs) as (_ & _ & _ & K). destruct (K Hex). auto.
    + rewrite (K1 Hs) in Hex. split; [exact Hex|contradiction].
Qed.

(* (a) the served footer always lives in a file that exists, is open, is not
   scheduled for removal, and holds that footer completely *)
Theorem served_footer_alive n st :
  Inv n st ->
  forall f, o_file (cur st) = Some f ->
    f_exists (files st f) = true /\ f_doomed (files st f) = false /\
    f_header (files st f) = true /\ f_refs (files st f) = 1 /\
    In {| d_id := s_cur st; d_content := o_content (cur st) |} (f_footers (files st f)).
Proof.
  intros HI f Hf. pose proof (i_served _ _ HI) as H. pose proof (i_frefs _ _ HI f) as Hr.
  rewrite Hf in H, Hr. rewrite Nat.eqb_refl in Hr. tauto.
Qed.

Corollary served_footer_alive_run o fo ks :
  let st := reachable o fo ks in
  forall f, o_file (cur st) = Some f ->
    f_exists (files st f) = true /\ f_doomed (files st f) = false /\
    f_header (files st f) = true /\ f_refs (files st f) = 1 /\
    In {| d_id := s_cur st; d_content := o_content (cur st) |} (f_footers (files st f)).
Proof. intros st. apply (served_footer_alive (length ks)). apply Inv_reachable. Qed.

(* (b) a round that reports success: its footer is complete in an existing
   file, durable unless NoSync applies, served, and holds every id handed over *)
Theorem success_is_served o fo n k st :
  Inv n st -> k <> RNoop ->
  let st' := fst (persister_round o fo n k st) in
  let oc := snd (persister_round o fo n k st) in
  ro_error oc = false ->
  ro_committed oc = true /\ ro_onerror oc = false /\
  ro_handed oc = dirty (hand_over n st) /\ ro_handed oc <> [] /\
  dirty st' = [] /\ ro_served oc = s_cur st' /\
  o_content (cur st') = o_content (cur st) ++ ro_handed oc /\
  exists t, o_file (cur st') = Some t /\
            f_exists (files st' t) = true /\ f_doomed (files st' t) = false /\
            In {| d_id := s_cur st'; d_content := o_content (cur st') |} (f_footers (files st' t)) /\
            (sync_req o (ro_kind oc) = true -> f_unsynced (files st' t) = []).
Proof.
  intros HI Hk st' oc Herr.
  destruct (outcome_fields o fo n k st) as (Hon & Hsv & Hh). fold st' oc in Hon, Hsv, Hh.
  destruct (round_class o fo n k st HI) as [(_ & [E|E] & _)|(Hc & _ & _ & HO)];
    [fold oc in E; congruence|contradiction|]. fold st' oc in Hc, HO.
  destruct (OkStep_served _ _ _ _ HO) as (t & Ecur & _ & Hex & Hnd & Hin & Hsy & _).
  unfold pending in *. rewrite handed_cur, (handed_not_noop n k st Hk), <- (Hh Hk) in *.
  rewrite Ecur. simpl.
  repeat split; auto; try congruence.
  - rewrite (Hh Hk). apply (Inv_hand_over n st HI).
  - apply (k_d _ _ _ _ HO).
  - exists t. auto.
Qed.

(* (c) a round that reports an error: surfaced, nothing committed, the served
   footer and its file untouched, the dirty stack still waiting *)
Theorem error_keeps_served o fo n k st :
  Inv n st ->
  let st' := fst (persister_round o fo n k st) in
  let oc := snd (persister_round o fo n k st) in
  ro_error oc = true ->
  ro_onerror oc = true /\ ro_committed oc = false /\
  s_cur st' = s_cur st /\ cur st' = cur st /\ ro_served oc = s_cur st /\
  dirty st' = ro_handed oc /\ ro_handed oc <> [] /\
  forall f, o_file (cur st) = Some f ->
    same_meta (files st' f) (files st f) /\
    incl (f_footers (files st f)) (f_footers (files st' f)).
Proof.
  intros HI st' oc Herr.
  destruct (outcome_fields o fo n k st) as (Hon & Hsv & Hh). fold st' oc in Hon, Hsv, Hh.
  destruct (handed_same n k st) as (Ef & En & _ & Es & _).
  destruct (round_class o fo n k st HI) as [(Hc & [_| -> ] & _ & HE)|(_ & E & _)];
    try (fold oc in E; congruence); try discriminate Herr. fold st' oc in Hc, HE.
  pose proof (proj2 (Inv_hand_over n st HI)) as Hd.
  assert (Hk : k <> RNoop) by (intros ->; discriminate Herr).
  pose proof (ErrStep_cur _ _ _ HE) as Hcur. rewrite handed_cur in Hcur.
  pose proof (e_sc _ _ _ HE) as Hsc. rewrite Es in Hsc.
  pose proof (e_d _ _ _ HE) as Hdd. rewrite (handed_not_noop n k st Hk) in Hdd.
  split; [congruence|]. split; [exact Hc|]. split; [exact Hsc|]. split; [exact Hcur|].
  split; [congruence|]. split; [rewrite (Hh Hk); exact Hdd|]. split; [rewrite (Hh Hk); exact Hd|].
  intros f Hf.
  pose proof (i_served _ _ HI) as Hs. rewrite Hf in Hs. destruct Hs as (Hflt & _).
  rewrite <- En in Hflt. destruct (e_old _ _ _ HE f Hflt) as (Hm & HF).
  rewrite Ef in Hm, HF. split; [exact Hm|].
  destruct HF as [E|[E _]]; rewrite E; [apply incl_refl|apply incl_tl, incl_refl].
Qed.

(* (d) no round id is ever applied twice to the served content, and an error
   is never reported for a round whose footer was committed *)
Lemma NoDup_app_l (l r : list nat) : NoDup (l ++ r) -> NoDup l.
Proof.
  induction l as [|a l IH]; simpl; intros H; [constructor|].
  inversion H; subst. constructor; auto. intros Hin. apply H2. apply in_or_app. auto.
Qed.

Theorem no_round_applied_twice n st : Inv n st -> NoDup (o_content (cur st) ++ dirty st).
Proof. intros HI. apply (i_nodup _ _ HI). Qed.

Corollary no_round_applied_twice_run o fo ks :
  NoDup (o_content (cur (reachable o fo ks))).
Proof. eapply NoDup_app_l, no_round_applied_twice, Inv_reachable. Qed.

Theorem no_error_after_commit o fo n k st :
  Inv n st ->
  ro_error (snd (persister_round o fo n k st)) = true ->
  ro_committed (snd (persister_round o fo n k st)) = false.
Proof. intros HI H. apply (error_keeps_served o fo n k st HI H). Qed.

Theorem no_error_after_commit_run o fo ks : forall n st,
  Inv n st ->
  Forall (fun oc => ro_error oc = true -> ro_committed oc = false) (snd (run o fo n ks st)).
Proof. apply run_outcomes. intros n k st. apply no_error_after_commit. Qed.

(* (e) once the operations of an attempt succeed, the attempt succeeds *)
Theorem quiet_round_succeeds o fo n k st :
  (forall s, fo n s = false) ->
  ro_error (snd (persister_round o fo n k st)) = false.
Proof.
  intros Hq. assert (Hfl : forall s, fl fo n s = false) by (intros s; apply Hq).
  destruct k; [reflexivity| | |];
    unfold persister_round, persister_body, store_persist, effective_kind, persist_append, persist_compact,
           start_or_reuse, start_file, persist_footer, remove_on_close;
    rewrite ?Hfl; rewrite ?Bool.andb_false_r; cbn [negb andb orb fst snd];
    destruct (o_file (objs (hand_over n st) (s_cur (hand_over n st))));
    rewrite ?Hfl; rewrite ?Bool.andb_false_r; cbn [negb andb orb fst snd]; reflexivity.
Qed.

(* (e) for runs: whatever happened before, if the oracle is quiet for the next
   attempt, that attempt succeeds, serves everything handed over so far and
   leaves nothing waiting *)
Theorem retry_after_failures_succeeds o fo ks k :
  k <> RNoop ->
  (forall s, fo (length ks) s = false) ->
  let st := reachable o fo ks in
  let st' := fst (persister_round o fo (length ks) k st) in
  let oc := snd (persister_round o fo (length ks) k st) in
  ro_error oc = false /\ dirty st' = [] /\
  o_content (cur st') = o_content (cur st) ++ ro_handed oc /\
  incl (dirty st) (ro_handed oc).
Proof.
  intros Hk Hq st st' oc.
  pose proof (quiet_round_succeeds o fo (length ks) k st Hq) as He.
  pose proof (success_is_served o fo (length ks) k st (Inv_reachable o fo ks) Hk He)
    as (_ & _ & Hh & _ & Hd & _ & Hc & _).
  fold st' in Hd, Hc. fold oc in Hh, Hc.
  repeat split; auto.
  rewrite Hh. unfold hand_over. destruct (dirty st) eqn:E; [intros x []|rewrite E; apply incl_refl].
Qed.

(* Close drops the collection's and the store's count on the served footer:
   every file is closed, nothing else about the files changes *)
Lemma objs_map_obj_same st i G : objs (map_obj st i G) i = G (objs st i).
Proof. unfold map_obj, upd_obj, set_objs. simpl. rewrite Nat.eqb_refl. reflexivity. Qed.

Lemma close_all_eq n st :
  Inv n st ->
  close_all st =
  let st2 := map_obj (map_obj st (s_cur st) obj_dec) (s_cur st) obj_dec in
  match o_file (cur st) with Some f => file_decref st2 f | None => st2 end.
Proof.
  intros HI. pose proof (i_same _ _ HI) as Hsame. pose proof (i_crefs _ _ HI) as Hcr.
  unfold cur in *. unfold close_all. rewrite Hsame.
  assert (E1 : obj_decref st (s_cur st) = map_obj st (s_cur st) obj_dec).
  { unfold obj_decref. rewrite Hcr. reflexivity. }
  rewrite E1. unfold obj_decref. rewrite objs_map_obj_same. simpl. rewrite Hcr. reflexivity.
Qed.

Theorem close_all_spec n st :
  Inv n st ->
  let sc := close_all st in
  nfiles sc = nfiles st /\
  forall i, f_refs (files sc i) = 0 /\
            f_exists (files sc i) = f_exists (files st i) /\
            f_header (files sc i) = f_header (files st i) /\
            f_footers (files sc i) = f_footers (files st i).
Proof.
  intros HI. cbv zeta. rewrite (close_all_eq n st HI).
  destruct HI as [Hsame Hclt Hcr Hor Hfr Hfresh Hdoom Hserved Hnodup Hidlt Hdids Horph Hdesc Hofresh].
  unfold cur in *. cbv zeta.
  destruct (o_file (objs st (s_cur st))) as [f|] eqn:Hf.
  - destruct Hserved as (Hflt & Hex & Hhd & Hnd & Hin).
    split; [reflexivity|]. intros i. simpl.
    destruct (Nat.eqb_spec i f) as [->|Hi].
    + pose proof (Hfr f) as Hr. rewrite Nat.eqb_refl in Hr.
      unfold file_dec. simpl. rewrite Hr, Hnd. simpl. auto.
    + pose proof (Hfr i) as Hr. rewrite (proj2 (Nat.eqb_neq i f) Hi) in Hr. auto.
  - split; [reflexivity|]. intros i. simpl. rewrite Hfr. auto.
Qed.

Lemma reopen_ext st st' :
  nfiles st' = nfiles st ->
  (forall i, f_exists (files st' i) = f_exists (files st i) /\
             f_header (files st' i) = f_header (files st i) /\
             f_footers (files st' i) = f_footers (files st i)) ->
  dir_of st' = dir_of st /\ reopen st' = reopen st.
Proof.
  intros Hn Hf.
  assert (Hd : dir_of st' = dir_of st)
    by (unfold dir_of; rewrite Hn; apply filter_ext; intros i; apply Hf).
  assert (Hu : forall m, newest_usable (files st') m = newest_usable (files st) m).
  { induction m as [|m IH]; simpl; [reflexivity|].
    destruct (Hf m) as (A & B & C). unfold usable. rewrite A, B, C, IH. reflexivity. }
  split; [exact Hd|]. unfold reopen. rewrite Hd, Hn, Hu.
  destruct (dir_of st); [reflexivity|].
  destruct (newest_usable (files st) (nfiles st)) as [t|]; [|reflexivity].
  destruct (Hf t) as (_ & _ & ->). reflexivity.
Qed.

Corollary reopen_close n st :
  Inv n st -> dir_of (close_all st) = dir_of st /\ reopen (close_all st) = reopen st.
Proof.
  intros HI. destruct (close_all_spec n st HI) as (Hn & Hf).
  apply reopen_ext; [exact Hn|]. intros i. apply (Hf i).
Qed.

Lemma In_dir_of st i : In i (dir_of st) <-> i < nfiles st /\ f_exists (files st i) = true.
Proof. unfold dir_of. rewrite filter_In, in_seq. intuition lia. Qed.

Lemma newest_usable_spec fs m :
  match newest_usable fs m with
  | Some t => t < m /\ usable (fs t) = true /\ forall i, t < i -> i < m -> usable (fs i) = false
  | None => forall i, i < m -> usable (fs i) = false
  end.
Proof.
  induction m as [|m IH]; simpl.
  - intros i Hi. lia.
  - destruct (usable (fs m)) eqn:Eu.
    + split; [lia|]. split; [exact Eu|]. intros i H1 H2. lia.
    + destruct (newest_usable fs m) as [t|].
      * destruct IH as (A & B & C). split; [lia|]. split; [exact B|].
        intros i H1 H2. destruct (Nat.eq_dec i m) as [->|Hne]; [exact Eu|]. apply C; lia.
      * intros i Hi. destruct (Nat.eq_dec i m) as [->|Hne]; [exact Eu|]. apply IH; lia.
Qed.

Lemma reopen_char st :
  match reopen st with
  | ReopenServes t d =>
      t < nfiles st /\ usable (files st t) = true /\ (exists r, f_footers (files st t) = d :: r) /\
      (forall i, t < i -> i < nfiles st -> usable (files st i) = false)
  | _ => forall i, i < nfiles st -> usable (files st i) = false
  end.
Proof.
  unfold reopen. destruct (dir_of st) as [|x xs] eqn:Ed.
  - intros i Hi. unfold usable. destruct (f_exists (files st i)) eqn:Ex; [|reflexivity].
    assert (Hin : In i (dir_of st)) by (apply In_dir_of; auto).
    rewrite Ed in Hin. contradiction.
  - pose proof (newest_usable_spec (files st) (nfiles st)) as H.
    destruct (newest_usable (files st) (nfiles st)) as [t|]; [|exact H].
    destruct H as (A & B & C).
    destruct (f_footers (files st t)) as [|d r] eqn:Ef.
    + unfold usable in B. rewrite Ef in B. rewrite Bool.andb_false_r in B. discriminate.
    + split; [exact A|]. split; [exact B|]. split; [exists r; rewrite Ef; reflexivity|exact C].
Qed.

(* no file newer than the served one exists *)
Definition Newest (st : state) : Prop :=
  forall i, f_exists (files st i) = true ->
            match o_file (cur st) with Some f => i <= f | None => True end.

(* the clean-up Stat of a failed full compaction (SRmStat) does not fail in round n *)
Definition rm_stat_ok (fo : oracle) (n : nat) : Prop := fl fo n SRmStat = false.
(* nor does the Stat before scheduling the superseded file (SRmOldStat) *)
Definition rm_old_stat_ok (fo : oracle) (n : nat) : Prop := fl fo n SRmOldStat = false.

Lemma exists_lt_nfiles n st i : Inv n st -> f_exists (files st i) = true -> i < nfiles st.
Proof.
  intros HI He. destruct (le_lt_dec (nfiles st) i) as [H|H]; auto.
  rewrite (i_fresh _ _ HI i H) in He. discriminate.
Qed.

Lemma Newest_round o fo n k st :
  Inv n st -> rm_stat_ok fo n -> Newest st -> Newest (fst (persister_round o fo n k st)).
Proof.
  intros HI Hrm HN i Hex. destruct (handed_same n k st) as (Ef & En & _).
  destruct (round_class o fo n k st HI) as [(_ & _ & _ & HE)|(_ & _ & _ & HO)].
  - rewrite (ErrStep_cur _ _ _ HE), handed_cur.
    destruct (ErrStep_exists _ _ _ i HE Hex) as [H|[H|H]].
    + rewrite Ef in H. apply HN, H.
    + unfold rm_stat_ok in Hrm. congruence.
    + rewrite handed_cur in H. rewrite H. exact I.
  - destruct (OkStep_served _ _ _ _ HO) as (t & Ecur & Ht & _ & _ & _ & _ & Hot).
    rewrite Ecur. simpl. destruct (Hot i Hex) as [->|(H & _)]; [lia|].
    rewrite Ef in H. pose proof (HN i H) as Hle. pose proof (exists_lt_nfiles n st i HI H) as Hlt.
    rewrite handed_cur, En in Ht. destruct Ht as [E| ->]; [rewrite E in Hle|]; lia.
Qed.

Lemma Newest_run o fo ks : forall n st,
  Inv n st -> (forall j, n <= j -> j < n + length ks -> rm_stat_ok fo j) ->
  Newest st -> Newest (fst (run o fo n ks st)).
Proof.
  apply (run_preserves o fo (rm_stat_ok fo) Newest). intros n k st. apply Newest_round.
Qed.

Lemma Newest_init : Newest init.
Proof. intros i H. discriminate H. Qed.

Lemma desc_head_max (d : dfoot) (l : list dfoot) e : desc (d :: l) -> In e (d :: l) -> d_id e <= d_id d.
Proof. intros (H & _) [<-|Hin]; [lia|]. specialize (H e Hin). lia. Qed.

(* Reopen after Close, when the clean-up Stat never failed: OpenStore picks the
   served file; it serves the served footer, or - only while a failed round's
   dirty stack is still waiting - a complete footer of such a failed round,
   whose content is the served content plus exactly that waiting stack *)
Theorem reopen_serves n st f :
  Inv n st -> Newest st -> o_file (cur st) = Some f ->
  exists d, reopen (close_all st) = ReopenServes f d /\
            ((d_id d = s_cur st /\ d_content d = o_content (cur st)) \/
             (s_cur st < d_id d /\ d_content d = o_content (cur st) ++ dirty st /\ dirty st <> [])).
Proof.
  intros HI HN Hf.
  destruct (served_footer_alive n st HI f Hf) as (Hex & Hnd & Hhd & Hrf & Hin).
  pose proof (exists_lt_nfiles n st f HI Hex) as Hflt.
  assert (Hu : usable (files st f) = true).
  { unfold usable. rewrite Hex, Hhd. destruct (f_footers (files st f)); [contradiction|reflexivity]. }
  rewrite (proj2 (reopen_close n st HI)).
  pose proof (reopen_char st) as HC. destruct (reopen st) as [| |t d].
  1, 2: rewrite (HC f Hflt) in Hu; discriminate.
  destruct HC as (Ht & Hut & (r & Eft) & Hnew).
  assert (t = f) as ->.
  { destruct (lt_eq_lt_dec t f) as [[H|H]|H]; [|exact H|].
    - rewrite (Hnew f H Hflt) in Hu. discriminate.
    - unfold usable in Hut. destruct (f_exists (files st t)) eqn:Et; [|discriminate].
      pose proof (HN t Et) as Hle. rewrite Hf in Hle. lia. }
  exists d. split; [reflexivity|].
  pose proof (i_desc _ _ HI f) as Hd. rewrite Eft in Hd, Hin.
  pose proof (desc_head_max d r _ Hd Hin) as Hle. simpl in Hle.
  destruct (Nat.eq_dec (d_id d) (s_cur st)) as [He|Hne].
  - left. destruct Hin as [E|Hin]; [rewrite E; simpl; auto|].
    destruct Hd as (Hd & _). specialize (Hd _ Hin). simpl in Hd. lia.
  - right. assert (Hlt : s_cur st < d_id d) by lia.
    destruct (i_orph _ _ HI f d) as (A & B); auto.
    rewrite Eft. left. reflexivity.
Qed.

(* in particular: once persistence has caught up, the reopened store serves
   exactly the footer the store last served *)
Corollary reopen_serves_last_served n st f :
  Inv n st -> Newest st -> o_file (cur st) = Some f -> dirty st = [] ->
  reopen (close_all st) = ReopenServes f {| d_id := s_cur st; d_content := o_content (cur st) |}.
Proof.
  intros HI HN Hf Hd.
  destruct (reopen_serves n st f HI HN Hf) as (d & -> & [(A & B)|(_ & _ & C)]).
  - destruct d; simpl in *; subst. reflexivity.
  - contradiction.
Qed.

Theorem reopen_serves_run o fo ks f :
  (forall j, j < length ks -> rm_stat_ok fo j) ->
  let st := reachable o fo ks in
  o_file (cur st) = Some f ->
  exists d, reopen (close_all st) = ReopenServes f d /\
            ((d_id d = s_cur st /\ d_content d = o_content (cur st)) \/
             (s_cur st < d_id d /\ d_content d = o_content (cur st) ++ dirty st /\ dirty st <> [])).
Proof.
  intros Hrm st Hf. apply (reopen_serves (length ks)); [apply Inv_reachable| |exact Hf].
  apply Newest_run; [apply Inv_init| |apply Newest_init].
  intros j _ Hj. apply Hrm. simpl in Hj. exact Hj.
Qed.

(* the directory holds exactly the served file *)
Definition Tidy (st : state) : Prop :=
  forall i, f_exists (files st i) = true -> o_file (cur st) = Some i.

Lemma Tidy_round o fo n k st :
  Inv n st -> rm_stat_ok fo n -> rm_old_stat_ok fo n ->
  o_file (cur st) <> None -> Tidy st ->
  let st' := fst (persister_round o fo n k st) in
  o_file (cur st') <> None /\ Tidy st'.
Proof.
  intros HI Hrm Hro Hsome HT. cbv zeta. unfold Tidy. destruct (handed_same n k st) as (Ef & _).
  destruct (round_class o fo n k st HI) as [(_ & _ & _ & HE)|(_ & _ & _ & HO)].
  - rewrite (ErrStep_cur _ _ _ HE), handed_cur. split; [exact Hsome|]. intros i Hex.
    destruct (ErrStep_exists _ _ _ i HE Hex) as [H|[H|H]].
    + rewrite Ef in H. apply HT, H.
    + unfold rm_stat_ok in Hrm. congruence.
    + rewrite handed_cur in H. contradiction.
  - destruct (OkStep_served _ _ _ _ HO) as (t & Ecur & _ & _ & _ & _ & _ & Hot).
    rewrite Ecur. simpl. split; [discriminate|]. intros i Hex.
    destruct (Hot i Hex) as [->|(H & L)]; [reflexivity|].
    rewrite Ef in H. rewrite handed_cur in L. specialize (L (HT i H)).
    unfold rm_old_stat_ok in Hro. congruence.
Qed.

Lemma Tidy_run o fo ks : forall n st,
  Inv n st ->
  (forall j, n <= j -> j < n + length ks -> rm_stat_ok fo j /\ rm_old_stat_ok fo j) ->
  o_file (cur st) <> None -> Tidy st ->
  let st' := fst (run o fo n ks st) in
  o_file (cur st') <> None /\ Tidy st'.
Proof.
  intros n st HI Hrm Hsome HT.
  apply (run_preserves o fo (fun j => rm_stat_ok fo j /\ rm_old_stat_ok fo j)
           (fun s => o_file (cur s) <> None /\ Tidy s)); auto.
  intros n' k s HI' (R1 & R2) (A & B). apply Tidy_round; auto.
Qed.

Lemma filter_seq_single (p : nat -> bool) (f m : nat) :
  f < m -> p f = true -> (forall i, i <> f -> p i = false) ->
  filter p (seq 0 m) = [f].
Proof.
  intros Hf Hp Hn.
  replace m with (f + S (m - S f)) by lia.
  rewrite seq_app, filter_app. simpl. rewrite Hp.
  rewrite (filter_none p (seq 0 f)), (filter_none p (seq (S f) (m - S f))); auto.
  - intros i Hi. apply in_seq in Hi. apply Hn. lia.
  - intros i Hi. apply in_seq in Hi. apply Hn. lia.
Qed.

(* (f) with both removeFileOnClose Stats succeeding in every round, starting
   from a directory that holds just the served file: after Close the directory
   holds exactly the served file *)
Theorem close_leaves_exactly_served o fo ks n st :
  Inv n st -> o_file (cur st) <> None -> Tidy st ->
  (forall j, n <= j -> j < n + length ks -> rm_stat_ok fo j /\ rm_old_stat_ok fo j) ->
  let st' := fst (run o fo n ks st) in
  exists f, o_file (cur st') = Some f /\ dir_of (close_all st') = [f] /\
            dir_after_reopen o (close_all st') = [f].
Proof.
  intros HI Hsome HT Hrm st'.
  destruct (Tidy_run o fo ks n st HI Hrm Hsome HT) as (A & B). fold st' in A, B.
  pose proof (Inv_run o fo ks n st HI) as HI'. fold st' in HI'.
  destruct (o_file (cur st')) as [f|] eqn:Hf; [|contradiction].
  exists f. split; auto.
  destruct (served_footer_alive _ st' HI' f Hf) as (Hex & _).
  pose proof (exists_lt_nfiles _ st' f HI' Hex) as Hflt.
  assert (Hdir : dir_of (close_all st') = [f]).
  { rewrite (proj1 (reopen_close _ st' HI')). unfold dir_of. apply filter_seq_single; auto.
    intros i Hi. destruct (f_exists (files st' i)) eqn:Ei; auto.
    specialize (B i Ei). congruence. }
  split; auto.
  assert (HN : Newest st').
  { intros i Ei. rewrite Hf. specialize (B i Ei). assert (i = f) by congruence. lia. }
  destruct (reopen_serves _ st' f HI' HN Hf) as (d & Hr & _).
  unfold dir_after_reopen. rewrite Hr, Hdir. destruct (keepFiles o); reflexivity.
Qed.

(* nothing is lost by Close + OpenStore when the clean-up Stat never failed *)
Corollary reopen_loses_nothing o fo ks f :
  (forall j, j < length ks -> rm_stat_ok fo j) ->
  let st := reachable o fo ks in
  o_file (cur st) = Some f ->
  exists d, reopen (close_all st) = ReopenServes f d /\ incl (o_content (cur st)) (d_content d).
Proof.
  intros Hrm st Hf. destruct (reopen_serves_run o fo ks f Hrm Hf) as (d & Hr & [(_ & E)|(_ & E & _)]);
    exists d; (split; [exact Hr|]); fold st in E; rewrite E.
  - apply incl_refl.
  - apply incl_appl, incl_refl.
Qed.

(* Close never removes the served file (no hypothesis on the oracle) *)
Theorem close_keeps_served_file n st f :
  Inv n st -> o_file (cur st) = Some f ->
  In f (dir_of (close_all st)) /\
  f_footers (files (close_all st) f) = f_footers (files st f).
Proof.
  intros HI Hf. destruct (served_footer_alive n st HI f Hf) as (Hex & _).
  split.
  - rewrite (proj1 (reopen_close n st HI)). apply In_dir_of. split; [|exact Hex].
    apply (exists_lt_nfiles n st f HI Hex).
  - destruct (close_all_spec n st HI) as (_ & Hc). apply (Hc f).
Qed.

(* OpenStore's clean-up: only KeepFiles keeps the other data files (store.go:627-639) *)
Lemma reopen_cleanup o sc f d :
  reopen sc = ReopenServes f d ->
  dir_after_reopen o sc = if keepFiles o then dir_of sc else [f].
Proof. intros H. unfold dir_after_reopen. rewrite H. reflexivity. Qed.

(* reachable states are closed under one more attempt *)
Lemma run_app o fo ks1 : forall ks2 n st,
  fst (run o fo n (ks1 ++ ks2) st) = fst (run o fo (n + length ks1) ks2 (fst (run o fo n ks1 st))).
Proof.
  induction ks1 as [|k ks1 IH]; intros ks2 n st.
  - simpl. rewrite Nat.add_0_r. reflexivity.
  - simpl app. rewrite !run_cons. simpl fst. rewrite IH. simpl length.
    replace (S n + length ks1) with (n + S (length ks1)) by lia. reflexivity.
Qed.

Lemma reachable_snoc o fo ks k :
  reachable o fo (ks ++ [k]) = fst (persister_round o fo (length ks) k (reachable o fo ks)).
Proof.
  unfold reachable. rewrite run_app. rewrite run_cons. reflexivity.
Qed.

Definition opts0 : opts :=
  {| noSync := false; compactionSync := false; midSync := false; keepFiles := false |}.
Definition opts_nosync : opts :=
  {| noSync := true; compactionSync := false; midSync := false; keepFiles := false |}.

(* fails exactly the listed (round, step) pairs *)
Definition fail_at (l : list (nat * step)) : oracle :=
  fun n s => existsb (fun p => (fst p =? n) && (step_ix (snd p) =? s)) l.

Definition quiet : oracle := fun _ _ => false.

Lemma fail_at_quiet l s :
  existsb (fun p => step_ix (snd p) =? step_ix s) l = false -> forall j, fl (fail_at l) j s = false.
Proof.
  unfold fl, fail_at. induction l as [|p l IH]; simpl; intros H j; [reflexivity|].
  apply orb_false_iff in H. destruct H as (A & B). rewrite A, andb_false_r. apply IH, B.
Qed.

(* F-A (data loss).  Round 0 appends into file 0.  Round 1 is a full compaction
   into the new file 1: everything succeeds up to and including the footer
   write, then the Sync after the footer fails (store_footer.go:39) - error exit
   2 of compact (store_compact.go:318-323) calls removeFileOnClose(frefCompact),
   whose own Stat fails (store.go:328-331), so no unlink callback is registered;
   the deferred frefCompact.DecRef() closes file 1, which stays in the directory
   with a COMPLETE footer {0,1}.  Persist returns the error, file 0 stays served.
   Rounds 2 (the retry of round 1's stack) and 3 append into file 0 and succeed:
   the store serves {0,1,3}.  After Close, OpenStore takes the newest file with
   a complete footer - file 1 - serves {0,1} and deletes file 0: round 3, which
   reported success, is lost. *)
Definition witness_loss_rounds := [RAppend; RFull; RAppend; RAppend].
Definition witness_loss_oracle := fail_at [(1, SSync2); (1, SRmStat)].

Theorem reopen_serves_what_was_served_refuted :
  exists o ks fo,
    let st := reachable o fo ks in
    Forall (fun oc => ro_error oc = false) (skipn 2 (snd (run o fo 0 ks init))) /\
    dirty st = [] /\ o_file (cur st) = Some 0 /\ o_content (cur st) = [0; 1; 3] /\
    reopen (close_all st) = ReopenServes 1 {| d_id := 2; d_content := [0; 1] |} /\
    dir_of (close_all st) = [0; 1] /\
    dir_after_reopen o (close_all st) = [1].
Proof.
  exists opts0, witness_loss_rounds, witness_loss_oracle.
  vm_compute. repeat split; repeat constructor.
Qed.

(* the same with mmap failing (store_footer.go:316, error exit 3 of compact,
   store_compact.go:325-331) instead of the Sync, also under NoSync *)
Theorem reopen_serves_what_was_served_refuted_mmap :
  exists ks fo,
    let st := reachable opts_nosync fo ks in
    dirty st = [] /\ o_content (cur st) = [0; 1; 3] /\
    reopen (close_all st) = ReopenServes 1 {| d_id := 2; d_content := [0; 1] |} /\
    dir_after_reopen opts_nosync (close_all st) = [1].
Proof.
  exists witness_loss_rounds, (fail_at [(1, SMmap); (1, SRmStat)]).
  vm_compute. repeat split.
Qed.

(* F-B (unopenable directory).  The very first round has to create file 0
   (startOrReuseFile -> startFileLOCKED); the segment write fails
   (segment.go:691-713); persist returns the error (store.go:144-147) and its
   deferred fref.DecRef() closes the file - nothing removes it.  The directory
   now holds a header-only file; after Close, OpenStore finds a data file but
   no footer and fails with "could not open/parse any file" (store.go:653). *)
Theorem reopen_after_failed_first_round_refuted :
  exists o ks fo,
    let st := reachable o fo ks in
    o_content (cur st) = [] /\ dir_of (close_all st) = [0] /\
    reopen (close_all st) = ReopenError.
Proof.
  exists opts0, [RAppend], (fail_at [(0, SSegWrite)]).
  vm_compute. repeat split.
Qed.

(* F-C (benign).  A round that REPORTED AN ERROR can leave a complete footer
   behind in the served file: the Sync after the footer write fails
   (store_footer.go:39), persist does footer.DecRef() and returns the error
   (store.go:156-160); the store keeps serving footer 1, but after Close the
   newest complete footer in the file is footer 2 of the failed round, and that
   is what OpenStore serves: the served content plus the stack that was still
   waiting (this is the second alternative of reopen_serves). *)
Theorem reopen_serves_last_served_footer_refuted :
  exists o ks fo,
    let st := reachable o fo ks in
    (forall j, rm_stat_ok fo j /\ rm_old_stat_ok fo j) /\
    ro_error (nth 1 (snd (run o fo 0 ks init)) (snd (persister_round o fo 0 RNoop init))) = true /\
    s_cur st = 1 /\ o_content (cur st) = [0] /\ dirty st = [1] /\
    reopen (close_all st) = ReopenServes 0 {| d_id := 2; d_content := [0; 1] |}.
Proof.
  exists opts0, [RAppend; RAppend], (fail_at [(1, SSync2)]).
  split.
  - intros j. split; apply fail_at_quiet; reflexivity.
  - vm_compute. repeat split.
Qed.

(* the same for a partial compaction under NoSync: mmap fails after the footer
   was written (compact persists the footer BEFORE loadSegments) *)
Theorem reopen_serves_last_served_footer_refuted_partial :
  exists ks fo,
    let st := reachable opts_nosync fo ks in
    s_cur st = 1 /\ o_content (cur st) = [0] /\ dirty st = [1] /\
    reopen (close_all st) = ReopenServes 0 {| d_id := 2; d_content := [0; 1] |}.
Proof.
  exists [RAppend; RPartial], (fail_at [(1, SMmap)]).
  vm_compute. repeat split.
Qed.

(* F-D (leaked files).  "After Close the directory holds exactly the served
   file" fails in three ways. *)
(* 1. the Stat of removeFileOnClose(old file) after a successful full compaction
      fails (store.go:328 via store_compact.go:82; the error is ignored): the
      superseded file 0 is never unlinked *)
Theorem close_leaves_exactly_served_refuted_old_stat :
  exists o ks fo,
    let st := reachable o fo ks in
    Forall (fun oc => ro_error oc = false) (snd (run o fo 0 ks init)) /\
    o_file (cur st) = Some 1 /\ dir_of (close_all st) = [0; 1].
Proof.
  exists opts0, [RAppend; RFull], (fail_at [(1, SRmOldStat)]).
  vm_compute. repeat split; repeat constructor.
Qed.

(* 2. a full compaction fails while writing, and the Stat of
      removeFileOnClose(new file) fails too: the half-written file 1 stays *)
Theorem close_leaves_exactly_served_refuted_new_stat :
  exists o ks fo,
    let st := reachable o fo ks in
    o_file (cur st) = Some 0 /\ dir_of (close_all st) = [0; 1] /\
    reopen (close_all st) = ReopenServes 0 {| d_id := 1; d_content := [0] |}.
Proof.
  exists opts0, [RAppend; RFull], (fail_at [(1, SWData); (1, SRmStat)]).
  vm_compute. repeat split.
Qed.

(* 3. the first round fails after creating file 0 (no clean-up at all in
      persist); the retry creates file 1 and succeeds; file 0 stays *)
Theorem close_leaves_exactly_served_refuted_first_file :
  exists o ks fo,
    let st := reachable o fo ks in
    (forall j, rm_stat_ok fo j /\ rm_old_stat_ok fo j) /\
    o_file (cur st) = Some 1 /\ dirty st = [] /\ dir_of (close_all st) = [0; 1].
Proof.
  exists opts0, [RAppend; RAppend], (fail_at [(0, SSegWrite)]).
  split.
  - intros j. split; apply fail_at_quiet; reflexivity.
  - vm_compute. repeat split.
Qed.

(* a state with a served file and a tidy directory is reachable *)
Example tidy_state_reachable :
  let st := reachable opts0 quiet [RAppend] in
  Inv 1 st /\ o_file (cur st) <> None /\ Tidy st /\ Newest st.
Proof.
  cbv zeta. pose proof (Inv_reachable opts0 quiet [RAppend]) as HI. simpl length in HI.
  split; [exact HI|]. split; [vm_compute; discriminate|].
  assert (HT : Tidy (reachable opts0 quiet [RAppend])).
  { intros i Hi. destruct i as [|i]; [reflexivity|].
    rewrite (i_fresh _ _ HI (S i)) in Hi; [discriminate|]. vm_compute. lia. }
  split; [exact HT|].
  intros i Hi. rewrite (HT i Hi). lia.
Qed.

(* the Stat hypotheses are satisfied by oracles that fail elsewhere, and the
   conclusion of close_leaves_exactly_served then holds with real failures *)
Example rm_stat_hyps_satisfiable :
  let fo := fail_at [(1, SSync2); (2, SWData); (3, SMmap); (4, SOpen)] in
  (forall j, rm_stat_ok fo j /\ rm_old_stat_ok fo j) /\
  map ro_error (snd (run opts0 fo 0 [RAppend; RAppend; RFull; RPartial; RFull; RFull] init)) =
    [false; true; true; true; true; false] /\
  dir_of (close_all (reachable opts0 fo [RAppend; RAppend; RFull; RPartial; RFull; RFull])) = [3].
Proof.
  cbv zeta. split.
  - intros j. split; apply fail_at_quiet; reflexivity.
  - vm_compute. auto.
Qed.

(* rounds of every kind succeed (b is not vacuous) and fail (c is not vacuous) *)
Example success_and_error_occur :
  map (fun oc => (ro_kind oc, ro_error oc, ro_committed oc, ro_handed oc))
      (snd (run opts0 (fail_at [(2, SFragStat); (2, SHeader); (3, SFootWrite)]) 0
                [RAppend; RNoop; RPartial; RPartial; RPartial; RFull] init)) =
  [ (RAppend, false, true, [0]); (RNoop, false, false, []);
    (RFull, true, false, [2]); (RPartial, true, false, [2]);
    (RPartial, false, true, [2]); (RFull, false, true, [5]) ].
Proof. vm_compute. reflexivity. Qed.

Lemma run_length o fo ks : forall n st, length (snd (run o fo n ks st)) = length ks.
Proof.
  induction ks as [|k ks IH]; intros n st; [reflexivity|].
  rewrite run_cons. simpl. rewrite IH. reflexivity.
Qed.

Lemma predict_eq o ks fo :
  predict o ks fo =
  (snd (run o fo 0 ks init),
   let stc := close_all (reachable o fo ks) in
   {| ds_files := file_list stc; ds_dir := dir_of stc; ds_reopen := reopen stc;
      ds_dir_reopened := dir_after_reopen o stc |}).
Proof.
  unfold predict, reachable. destruct (run o fo 0 ks init) as [st ocs]. reflexivity.
Qed.

Theorem predict_outcomes o ks fo :
  length (fst (predict o ks fo)) = length ks /\
  Forall (fun oc => ro_error oc = true -> ro_committed oc = false /\ ro_onerror oc = true)
         (fst (predict o ks fo)).
Proof.
  rewrite predict_eq. simpl fst. split; [apply run_length|].
  apply run_outcomes; [|apply Inv_init]. intros n k st HI He.
  destruct (error_keeps_served o fo n k st HI He) as (A & B & _). auto.
Qed.

Example predict_witness_loss :
  snd (predict opts0 witness_loss_rounds witness_loss_oracle) =
  {| ds_files :=
       [(0, {| f_exists := true; f_refs := 0; f_doomed := false; f_header := true;
               f_footers := [{| d_id := 4; d_content := [0; 1; 3] |};
                             {| d_id := 3; d_content := [0; 1] |};
                             {| d_id := 1; d_content := [0] |}];
               f_unsynced := [] |});
        (1, {| f_exists := true; f_refs := 0; f_doomed := false; f_header := true;
               f_footers := [{| d_id := 2; d_content := [0; 1] |}];
               f_unsynced := [2] |})];
     ds_dir := [0; 1];
     ds_reopen := ReopenServes 1 {| d_id := 2; d_content := [0; 1] |};
     ds_dir_reopened := [1] |}.
Proof. vm_compute. reflexivity. Qed.

Print Assumptions Inv_run.
Print Assumptions served_footer_alive_run.
Print Assumptions success_is_served.
Print Assumptions error_keeps_served.
Print Assumptions no_round_applied_twice_run.
Print Assumptions no_error_after_commit_run.
Print Assumptions quiet_round_succeeds.
Print Assumptions retry_after_failures_succeeds.
Print Assumptions close_all_spec.
Print Assumptions reopen_serves_run.
Print Assumptions reopen_serves_last_served.
Print Assumptions close_leaves_exactly_served.
Print Assumptions predict_outcomes.
Print Assumptions reopen_serves_what_was_served_refuted.
Print Assumptions reopen_serves_what_was_served_refuted_mmap.
Print Assumptions reopen_after_failed_first_round_refuted.
Print Assumptions reopen_serves_last_served_footer_refuted.
Print Assumptions reopen_serves_last_served_footer_refuted_partial.
Print Assumptions close_leaves_exactly_served_refuted_old_stat.
Print Assumptions close_leaves_exactly_served_refuted_new_stat.
Print Assumptions close_leaves_exactly_served_refuted_first_file.

