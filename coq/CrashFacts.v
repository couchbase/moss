From Coq Require Import List Bool Arith Lia.
From Moss Require Import ListFacts Crash.

(* while scanning with dirty = false at position n, every earlier write has a sync behind it *)
Definition all_synced_before (tr : list cop) (n : nat) : Prop :=
  forall i, i < n -> is_write_at tr i = true -> sync_between tr (S i) n = true.

Lemma sync_between_app_sync pre suf i n :
  length pre = n -> i <= n -> sync_between (pre ++ CSync :: suf) i (S n) = true.
Proof.
  intros Hl Hi. unfold sync_between. apply existsb_exists. exists CSync. split; auto.
  replace (S n - i) with (S (n - i)) by lia.
  assert (E : skipn i (pre ++ CSync :: suf) = skipn i pre ++ CSync :: suf).
  { rewrite skipn_app. replace (i - length pre) with 0 by lia. reflexivity. }
  rewrite E. rewrite firstn_app.
  assert (Hs : length (skipn i pre) = n - i) by (rewrite skipn_length; lia).
  rewrite Hs. replace (S (n - i) - (n - i)) with 1 by lia.
  apply in_or_app. right. simpl. auto.
Qed.

Lemma sync_between_mono tr i j k : j <= k -> sync_between tr i j = true -> sync_between tr i k = true.
Proof.
  unfold sync_between. intros Hjk H. apply existsb_exists in H. destruct H as [o [Hin Ho]].
  apply existsb_exists. exists o. split; auto.
  assert (E : firstn (j - i) (skipn i tr) = firstn (j - i) (firstn (k - i) (skipn i tr))).
  { rewrite firstn_firstn. f_equal. lia. }
  rewrite E in Hin. apply In_firstn_in in Hin. exact Hin.
Qed.

(* the scan invariant: with the ops before position n being `pre`,
   dirty = false means every write in pre is followed by a sync within pre *)
Lemma barrier_from_footer_synced :
  forall suf pre dirty,
    barrier_from dirty suf = true ->
    (dirty = false -> all_synced_before (pre ++ suf) (length pre)) ->
    forall i, is_footer_at (pre ++ suf) i = true -> length pre <= i ->
      all_synced_before (pre ++ suf) i.
Proof.
  induction suf as [|o suf IH]; intros pre dirty Hb Hd i Hf Hi.
  - unfold is_footer_at in Hf. rewrite app_nil_r in Hf.
    rewrite (proj2 (nth_error_None pre i)) in Hf by lia. discriminate.
  - assert (Eapp : pre ++ o :: suf = (pre ++ [o]) ++ suf) by (rewrite <- app_assoc; reflexivity).
    assert (Hlen : length (pre ++ [o]) = S (length pre)) by (rewrite app_length; simpl; lia).
    destruct (Nat.eq_dec i (length pre)) as [->|Hne].
    + (* the footer is o itself *)
      unfold is_footer_at in Hf. rewrite nth_error_app2 in Hf by lia.
      rewrite Nat.sub_diag in Hf. simpl in Hf.
      destruct o as [[|]|]; try discriminate.
      simpl in Hb. apply andb_true_iff in Hb. destruct Hb as [Hdirty _].
      apply Hd. now destruct dirty.
    + rewrite Eapp in *. 
      destruct o as [[|]|]; simpl in Hb.
      * apply andb_true_iff in Hb. destruct Hb as [_ Hb].
        apply (IH (pre ++ [CWrite true]) true Hb); [discriminate| exact Hf | lia].
      * apply (IH (pre ++ [CWrite false]) true Hb); [discriminate| exact Hf | lia].
      * apply (IH (pre ++ [CSync]) false Hb); [| exact Hf | lia].
        intros _ j Hj Hw. rewrite Hlen in *. rewrite <- Eapp.
        apply sync_between_app_sync; auto. 
        destruct (Nat.eq_dec j (length pre)) as [->|]; [|lia].
        exfalso. unfold is_write_at in Hw. rewrite <- Eapp in Hw.
        rewrite nth_error_app2 in Hw by lia. rewrite Nat.sub_diag in Hw. discriminate.
Qed.

(* C05, write ordering: if the trace keeps the barrier, then in EVERY crash
   image — any crash point, any subset / tearing of the un-synced writes — a
   footer that is completely on disk has everything that was written before it
   completely on disk too.  So a footer the backward scan accepts never points
   at missing bytes, and the content it serves is the content of a completed
   round. *)
Theorem complete_footer_has_its_data tr p present i j :
  barrier_ok tr = true -> legal_image tr p present ->
  is_footer_at tr i = true -> present i = true ->
  j < i -> is_write_at tr j = true -> present j = true.
Proof.
  intros Hb [Hl1 Hl2] Hf Hp Hj Hw.
  assert (Hip : i < p).
  { destruct (Nat.lt_ge_cases i p); auto. rewrite (Hl2 i) in Hp by lia. discriminate. }
  pose proof (barrier_from_footer_synced tr [] false Hb) as H. simpl in H.
  assert (Hall : all_synced_before tr i).
  { apply H; auto; try lia. intros _ k Hk. lia. }
  apply Hl1; [lia|]. apply (sync_between_mono tr (S j) i p); [lia|]. apply Hall; auto.
Qed.

(* without the barrier the statement is false: footer on disk, data not *)
Theorem no_barrier_refuted :
  exists tr p present i j,
    legal_image tr p present /\ is_footer_at tr i = true /\ present i = true /\
    j < i /\ is_write_at tr j = true /\ present j = false.
Proof.
  exists [CWrite false; CWrite true; CSync], 2, (fun i => Nat.eqb i 1), 1, 0.
  repeat split; auto.
  - intros i Hi Hs. destruct i as [|[|i]]; simpl in *; try discriminate; try lia; auto.
  - intros i Hi. destruct i as [|[|i]]; try lia. reflexivity.
Qed.

(* non-vacuity: the trace of an ordinary round keeps the barrier *)
Example barrier_holds_for_a_round :
  barrier_ok [CWrite false; CWrite false; CSync; CWrite true; CSync; CWrite false; CSync; CWrite true; CSync] = true.
Proof. reflexivity. Qed.
