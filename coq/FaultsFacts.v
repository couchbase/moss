From Coq Require Import List NArith Bool Lia Arith.
From Moss Require Import Faults.

(* Every statement below is for an ARBITRARY failure oracle fail : nat -> bool
   (any single operation failing, any burst, failures persisting to the end of
   the round).  run_ops stops at the first operation that fails, so the
   outcomes of a round are: one per operation that can fail, and the round in
   which none did. *)

Lemma run_round_cases fail k :
  let r := run_round fail k in
  (error r = false /\ served_new r = true /\ new_complete r = true /\
   (old_exists r = false -> new_exists r = true)) \/
  (error r = true /\ served_new r = false /\ old_exists r = true /\ new_complete r = false).
Proof.
  (* cbv leaves one `if fail i then .. else ..` per operation, from `fail i && can_fail`:
     `then true else false` where the operation can fail (failing is the right-hand class),
     `then false else false` where it cannot (OSwapFooter, ORemoveOld); the latter is
     destructed only to get rid of `fail i` *)
  destruct k; cbv;
    repeat match goal with
           | |- context [if fail ?i then true else false] => destruct (fail i); [right; repeat split|]
           | |- context [if fail ?i then false else false] => destruct (fail i)
           end;
    left; repeat split; intros H; try discriminate H.
Qed.

(* a round that reports success really serves its batches, from a complete footer *)
Theorem success_means_served fail k :
  error (run_round fail k) = false ->
  served_new (run_round fail k) = true /\ new_complete (run_round fail k) = true.
Proof. destruct (run_round_cases fail k) as [(_ & A & B & _)|(E & _)]; [auto|congruence]. Qed.

(* a round that does not complete is surfaced, and changes nothing *)
Theorem failure_is_surfaced_and_harmless fail k :
  served_new (run_round fail k) = false ->
  error (run_round fail k) = true /\ old_exists (run_round fail k) = true.
Proof. destruct (run_round_cases fail k) as [(_ & A & _)|(E & _ & B & _)]; [congruence|auto]. Qed.

(* no good data file is ever deleted in favour of an incomplete one *)
Theorem old_file_removed_only_after_complete_footer fail k :
  old_exists (run_round fail k) = false ->
  served_new (run_round fail k) = true /\ new_complete (run_round fail k) = true /\
  new_exists (run_round fail k) = true.
Proof. destruct (run_round_cases fail k) as [(_ & A & B & C)|(_ & _ & B & _)]; [auto|congruence]. Qed.

(* what is served is always complete *)
Theorem served_footer_is_complete fail k :
  served_new (run_round fail k) = true -> new_complete (run_round fail k) = true.
Proof. destruct (run_round_cases fail k) as [(_ & _ & B & _)|(_ & A & _)]; [auto|congruence]. Qed.

(* once operations succeed again, the retried round goes through *)
Theorem retry_without_failures_succeeds k :
  served_new (run_round (fun _ => false) k) = true /\ error (run_round (fun _ => false) k) = false.
Proof. destruct k; vm_compute; auto. Qed.
