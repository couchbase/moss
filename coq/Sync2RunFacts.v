(* Sync2RunFacts.v - every state the lock-step driver of Sync2Run.v visits is a
   reachable state of the Sync2 model, so the theorems of Sync2Facts.v (bounded
   top, no lost wake-up, no blocking under the lock, Close releases everybody)
   hold of it. *)
From Coq Require Import List Arith Bool.
Import ListNotations.
From Moss Require Import Sync2 Sync2Facts Sync2Run.

Lemma first_enabled_spec c s ls l s' :
  first_enabled c s ls = Some (l, s') -> step c s l = Some s' /\ In l ls.
Proof.
  induction ls as [|a r IH]; simpl; [discriminate|].
  destruct (step c s a) as [s1|] eqn:E; intros H.
  - inversion H; subst. auto.
  - destruct (IH H). auto.
Qed.

(* the steps settle takes are free ones *)
Lemma next_free_free c s l s' :
  next_free c s = Some (l, s') -> step c s l = Some s' /\ free_in (gating s) l = true.
Proof.
  unfold next_free. intros H. apply first_enabled_spec in H as [St In]. split; [exact St|].
  apply filter_In in In. tauto.
Qed.

Lemma settle_is_run c fuel : forall s,
  run c s (settle_trace c fuel s) = Some (settle c fuel s).
Proof.
  induction fuel as [|f IH]; simpl; intros s; [reflexivity|].
  destruct (next_free c s) as [[l s']|] eqn:E; [|reflexivity].
  apply next_free_free in E as [E _]. exact (run_cons c s l s' _ _ E (IH s')).
Qed.

Lemma drive_is_run c ls : forall s s',
  drive c s ls = Some s' -> exists tr, run c s tr = Some s'.
Proof.
  induction ls as [|l r IH]; intros s s' H; cbn [drive] in H.
  - inversion H; subst. exists []. reflexivity.
  - destruct (step c s l) as [s1|] eqn:E; [|discriminate].
    destruct (IH _ _ H) as [tr Htr].
    exists ((l :: settle_trace c settle_fuel s1) ++ tr).
    unfold run. rewrite run_app. fold (run c s (l :: settle_trace c settle_fuel s1)).
    rewrite (run_cons c s l s1 _ _ E (settle_is_run c settle_fuel s1)). exact Htr.
Qed.

Theorem apply_label_is_run c s l s' :
  apply_label c s l = Some s' -> exists ls, run c s ls = Some s'.
Proof. unfold apply_label. apply drive_is_run. Qed.

Theorem start_is_run c : exists ls, run c (init c) ls = Some (start c).
Proof. exists (settle_trace c settle_fuel (init c)). apply settle_is_run. Qed.

Theorem apply_labels_is_run c ls : forall s s',
  apply_labels c s ls = Some s' -> exists tr, run c s tr = Some s'.
Proof.
  induction ls as [|l r IH]; intros s s' H; cbn [apply_labels] in H.
  - inversion H; subst. exists []. reflexivity.
  - destruct (apply_label c s l) as [s1|] eqn:E; [|discriminate].
    destruct (apply_label_is_run _ _ _ _ E) as [t1 H1].
    destruct (IH _ _ H) as [t2 H2].
    exists (t1 ++ t2). unfold run in *. rewrite run_app, H1. exact H2.
Qed.

Theorem start_reachable c : reachable c (start c).
Proof. exact (start_is_run c). Qed.

Theorem apply_label_reachable c s l s' :
  reachable c s -> apply_label c s l = Some s' -> reachable c s'.
Proof.
  intros [ls H] A. destruct (apply_label_is_run _ _ _ _ A) as [tr Htr].
  exists (ls ++ tr). unfold run in *. rewrite run_app, H. exact Htr.
Qed.

Theorem apply_labels_reachable c ls s' :
  apply_labels c (start c) ls = Some s' -> reachable c s'.
Proof.
  intros A. destruct (start_is_run c) as [t0 H0].
  destruct (apply_labels_is_run _ _ _ _ A) as [tr Htr].
  exists (t0 ++ tr). unfold run in *. rewrite run_app, H0. exact Htr.
Qed.

(* what that buys, for every state the lock-step compares with the implementation
   (the harness uses MaxPreMergerBatches 1..3 and the ping queue holds 10) *)
Corollary lockstep_top_bounded c ls s' :
  1 <= c_cap c -> 1 <= c_qcap c ->
  apply_labels c (start c) ls = Some s' -> obs_top s' <= c_cap c.
Proof. intros C Q A. apply bounded_top2; auto. eapply apply_labels_reachable; eassumption. Qed.

Corollary lockstep_never_blocks_under_lock c ls s' :
  1 <= c_cap c -> 1 <= c_qcap c ->
  apply_labels c (start c) ls = Some s' -> z_lk s' = false.
Proof. intros C Q A. apply (no_block_under_lock c); auto. eapply apply_labels_reachable; eassumption. Qed.

Corollary lockstep_no_lost_wakeup c ls s' :
  1 <= c_cap c -> 1 <= c_qcap c ->
  apply_labels c (start c) ls = Some s' ->
  0 < z_wwait s' -> z_top s' = c_cap c /\ z_closed s' = false.
Proof. intros C Q A. apply no_lost_wakeup; auto. eapply apply_labels_reachable; eassumption. Qed.
