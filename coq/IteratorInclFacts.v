(* IteratorInclFacts.v — the moss iterator model (Iterator.v) with
   IteratorOptions.IncludeDeletions = true against the specifications of
   IteratorIncl.v.

   Main results (Section Incl, for an arbitrary merge operator fm, any cfg with
   cfg_ok cfg and c_incl cfg = true, any naive-seek budget c_tries):
   - C09i_start / C09i_next / C09i_current / C09i_current_ex / C09i_done_sticky:
     start state, Next, Current, CurrentEx are as specified over raw_spec;
   - C09i_seek: SeekTo is seek_naive (exactly what moss does);
   - C09i_seek_natural: SeekTo is the natural seek unless it walks forward
     from a live entry onto a deletion (fwd_onto_del);
   - C09i_program_naive: run_model = run_spec_incl_naive for every program;
   - C09i_program_partial: run_model = run_spec_incl (natural) on tame programs;
   - C09i_program_refuted / C09i_seek_refuted: the natural specification is
     false of the model (and of moss) in general.
   All of it is read off raw_next / raw_seek / raw_current of IteratorFacts.v, which
   hold for either setting of the option. *)
From Coq Require Import List NArith Bool Lia Arith.
From Moss Require Import Bytes BytesFacts Segment SegmentFacts Stack StackFacts
     Iterator IteratorFacts IteratorIncl.

Section MapFacts.
  Context {A B : Type}.
  Variable g : bytes * A -> bytes * B.
  Variable dA : A -> bool.
  Variable dB : B -> bool.
  Variable g_fst : forall e, fst (g e) = fst e.
  Variable g_del : forall e, dB (snd (g e)) = dA (snd e).

  Lemma walk_map : forall n x l,
    walk dB n x (map g l) = (map g (fst (walk dA n x l)), snd (walk dA n x l)).
  Proof.
    induction n as [|n IH]; intros x l; [reflexivity|].
    destruct l as [|[k a] t]; [reflexivity|].
    cbn [map].
    pose proof (g_fst (k, a)) as E1. pose proof (g_del (k, a)) as E2.
    destruct (g (k, a)) as [k' b] eqn:Eg. cbn [fst snd] in E1, E2. subst k'.
    cbn [walk]. rewrite E2.
    destruct (negb (dA a) && bleb x k).
    - cbn [fst snd map]. now rewrite Eg.
    - destruct t as [|p t']; [reflexivity|].
      (* walk's inner `match t` must see a cons on both sides to reduce; map is unfolded
         one step for that and folded back so that IH applies *)
      change (map g (p :: t')) with (g p :: map g t').
      cbv iota. change (g p :: map g t') with (map g (p :: t')). apply IH.
  Qed.

  Lemma hd_isdel_map l : hd_isdel dB (map g l) = hd_isdel dA l.
  Proof.
    destruct l as [|[k a] t]; auto. cbn [map].
    pose proof (g_del (k, a)) as E2. destruct (g (k, a)) as [k' b]. exact E2.
  Qed.

  Lemma fwd_onto_del_map x l : fwd_onto_del dB x (map g l) = fwd_onto_del dA x l.
  Proof.
    destruct l as [|[k a] t]; auto.
    pose proof (hd_isdel_map (drop_lt x ((k, a) :: t))) as Hh.
    rewrite <- (drop_lt_map g x _ g_fst) in Hh. cbn [map] in Hh |- *.
    pose proof (g_fst (k, a)) as E1. pose proof (g_del (k, a)) as E2.
    destruct (g (k, a)) as [k' b] eqn:Eg. cbn [fst snd] in E1, E2. subst k'.
    cbn [fwd_onto_del]. now rewrite E2, Hh.
  Qed.

  Lemma seek_list_map start tries full x l :
    map g (seek_list dA start tries full x l)
    = seek_list dB start tries (map g full) x (map g l).
  Proof.
    unfold seek_list. cbv zeta. rewrite (drop_lt_map g _ _ g_fst).
    destruct l as [|[k a] t]; [reflexivity|].
    assert (Hfuel : walk_fuel tries (map g ((k, a) :: t)) = walk_fuel tries ((k, a) :: t)).
    { unfold walk_fuel. now rewrite map_length. }
    pose proof (walk_map (walk_fuel tries ((k, a) :: t)) x ((k, a) :: t)) as Hw.
    rewrite <- Hfuel in Hw at 1.
    cbn [map] in Hw |- *.
    pose proof (g_fst (k, a)) as E1. pose proof (g_del (k, a)) as E2.
    destruct (g (k, a)) as [k' b] eqn:Eg. cbn [fst snd] in E1, E2. subst k'.
    rewrite E2. destruct (dA a); [reflexivity|].
    destruct (bcmp x k); [cbn [map]; now rewrite Eg | reflexivity |].
    rewrite Hw.
    destruct (walk dA (walk_fuel tries ((k, a) :: t)) x ((k, a) :: t)) as [l' r].
    cbn [fst snd]. destruct r; reflexivity.
  Qed.
End MapFacts.

Lemma nth_map_slice lo hi (ss : list segment) i :
  nth i (map (slice lo hi) ss) [] = slice lo hi (nth i ss []).
Proof.
  assert (E : slice lo hi [] = []) by (destruct hi; reflexivity).
  rewrite <- E at 1. apply map_nth.
Qed.

Lemma suffix_tl {X} (l pre r : list X) : l = pre ++ r -> exists pre', l = pre' ++ tl r.
Proof.
  intros ->. destruct r as [|e t]; [now exists pre|].
  exists (pre ++ [e]). now rewrite <- app_assoc.
Qed.

Section Incl.
  Variable fm : bytes -> value -> bytes -> value.

  (* all entries of the range have the value a single segment alone gives them *)
  Definition flat_ok (cfg : config) : Prop :=
    forall e, In e (raw_range cfg) -> full_get fm cfg (fst e) = apply_op fm (fst e) None (snd e).

  Definition seek_safeI (st : iter_state) : Prop :=
    match st_impl st with
    | IHeap _ => True
    | ISingle c _ => filter (kf (rng (st_cfg st))) (sc_seg c) = raw_range (st_cfg st) /\ flat_ok (st_cfg st)
    | ILower all rest => all = raw_range (st_cfg st) /\ flat_ok (st_cfg st) /\
                         exists pre, all = pre ++ rest
    end.

  (* reachable states *)
  Definition wfI (st : iter_state) : Prop :=
    wf_pre_fix st /\ seek_safeI st /\ c_incl (st_cfg st) = true.

  (* entries left *)
  Definition absI (st : iter_state) : list ientry := map (dec fm (st_cfg st)) (raw st).

  Lemma dec_fst cfg e : fst (dec fm cfg e) = fst e.
  Proof. reflexivity. Qed.

  Lemma dec_del cfg e : idel (snd (dec fm cfg e)) = is_del (snd e).
  Proof. reflexivity. Qed.

  Lemma range_implI st : wfI st -> range_impl (st_cfg st) (st_impl st) = raw_range (st_cfg st).
  Proof.
    intros [_ [Hs Hi]]. unfold seek_safeI in Hs.
    destruct (st_impl st) as [rem|c cur|all rest]; cbn [range_impl]; rewrite ?Hi, ?vis_true; tauto.
  Qed.

  (* the entries left are a suffix of the range *)
  Lemma raw_suffixI st : wfI st -> exists pre, raw_range (st_cfg st) = pre ++ raw st.
  Proof.
    intros Hwf. rewrite <- (range_implI st Hwf). destruct Hwf as [Hw [Hs _]].
    pose proof (raw_suffix st Hw) as G. unfold seek_safeI, raw in *.
    destruct (st_impl st) as [rem|c cur|all rest]; cbn [range_impl raw_impl] in *; tauto.
  Qed.

  Lemma seek_safeI_kind st st' : st_cfg st' = st_cfg st -> same_kind (st_impl st) (st_impl st') ->
    (forall all rest, st_impl st = ILower all rest -> exists pre, all = pre ++ raw st') ->
    seek_safeI st -> seek_safeI st'.
  Proof.
    unfold seek_safeI, raw. intros ->.
    destruct (st_impl st) as [|c cur|all rest], (st_impl st') as [|c' cur'|all' rest'];
      simpl; try tauto.
    - now intros ->.
    - intros -> Hsuf [H1 [H2 _]]. split; auto. split; auto. exact (Hsuf all rest eq_refl).
  Qed.

  Lemma heap_start_incl cfg lo : c_incl cfg = true ->
    heap_start cfg lo = map (slice lo (c_end cfg)) (all_segs cfg).
  Proof. intros Hi. unfold heap_start. now rewrite Hi. Qed.

  Theorem C09i_wf_start cfg : cfg_ok cfg -> c_incl cfg = true -> wfI (iter_start cfg).
  Proof.
    intros Hc Hi. destruct (C09_wf_start fm cfg Hc) as [Hw _].
    split; [exact Hw|]. split; [|exact Hi].
    unfold seek_safeI, iter_start, optimize. cbn [st_impl st_cfg].
    destruct (Nat.eqb (num_cursors_at_start cfg (c_start cfg)) 1) eqn:En; [|exact I].
    unfold optimize_pre_fix. rewrite (heap_start_incl cfg (c_start cfg) Hi).
    destruct (only_cursor (map (slice (c_start cfg) (c_end cfg)) (all_segs cfg))) as [i|] eqn:Eo;
      [|exact I].
    destruct (only_cursor_range fm cfg i Hc Eo) as [Hr Hf].
    destruct (i <? length (c_segs cfg)) eqn:Ei; cbn [st_impl sc_seg seg_cursor].
    - apply Nat.ltb_lt in Ei. split; [|exact Hf].
      now rewrite <- (nth_with_ll_lt (c_segs cfg) (c_ll cfg) i Ei).
    - rewrite nth_map_slice, slice_filter by (apply all_asc_nth; exact Hc).
      split; [exact Hr|]. split; [exact Hf|]. now exists [].
  Qed.

  Theorem C09i_start cfg : cfg_ok cfg -> c_incl cfg = true ->
    absI (iter_start cfg) = raw_spec fm cfg.
  Proof.
    intros Hc Hi. unfold absI, raw_spec.
    rewrite start_fixed, (proj2 (start_raw cfg _ Hc)), Hi, vis_true. reflexivity.
  Qed.

  Theorem C09i_next st : wfI st ->
    wfI (fst (iter_next st)) /\
    st_cfg (fst (iter_next st)) = st_cfg st /\
    absI (fst (iter_next st)) = tl (absI st) /\
    snd (iter_next st) = nonempty (tl (absI st)).
  Proof.
    intros [Hw [Hs Hi]]. destruct (raw_next st Hw) as (A & B & K & R & O).
    split; [|split; [exact B|split]].
    - split; [exact A|]. split; [|now rewrite B]. apply (seek_safeI_kind st _ B K); auto.
      intros all rest E. unfold seek_safeI in Hs. rewrite R. unfold raw. rewrite E in *.
      destruct Hs as [_ [_ [pre Hpre]]]. exact (suffix_tl _ _ _ Hpre).
    - unfold absI. rewrite B, R. apply map_tl.
    - unfold absI. now rewrite <- map_tl, nonempty_map.
  Qed.

  Theorem C09i_current_ex st : wfI st -> iter_current_ex st = spec_current_ex (absI st).
  Proof.
    intros [Hw _]. rewrite (raw_current_ex st Hw). unfold absI.
    destruct (raw st) as [|[k o] t]; reflexivity.
  Qed.

  Lemma cur_result_dec cfg g (l : segment) :
    (forall e, In e l -> snd (g e) = full_get fm cfg (fst e)) ->
    cur_result g l = spec_current_incl (map (dec fm cfg) l).
  Proof.
    destruct l as [|[k o] t]; [reflexivity|]. intros H. cbn [cur_result map dec spec_current_incl fst snd].
    now rewrite (H _ (or_introl eq_refl)).
  Qed.

  Theorem C09i_current st : wfI st -> iter_current fm st = spec_current_incl (absI st).
  Proof.
    intros Hwf. destruct (raw_suffixI st Hwf) as [pre Hpre]. destruct Hwf as [Hw [Hs _]].
    rewrite (raw_current fm st Hw). apply cur_result_dec. intros e He.
    assert (Hin : In e (raw_range (st_cfg st))) by (rewrite Hpre; apply in_or_app; now right).
    unfold seek_safeI in Hs.
    destruct (st_impl st) as [rem|c cur|all rest]; cbn [valof]; [reflexivity| |]; symmetry; now apply Hs.
  Qed.

  Definition seek_raw (cfg : config) (x : bytes) (l : segment) : segment :=
    seek_list is_del (c_start cfg) (c_tries cfg) (raw_range cfg) x l.

  Theorem C09i_seek_raw x st : wfI st ->
    wfI (fst (iter_seek x st)) /\
    st_cfg (fst (iter_seek x st)) = st_cfg st /\
    raw (fst (iter_seek x st)) = seek_raw (st_cfg st) x (raw st) /\
    snd (iter_seek x st) = nonempty (raw (fst (iter_seek x st))).
  Proof.
    intros Hwf. destruct (raw_suffixI st Hwf) as [pre Hpre].
    pose proof (range_implI st Hwf) as Hrange. destruct Hwf as [Hw [Hs Hi]].
    destruct (raw_seek x st Hw) as (A & B & K & R & O).
    split; [|split; [exact B|split; [|exact O]]].
    - split; [exact A|]. split; [|now rewrite B]. apply (seek_safeI_kind st _ B K); auto.
      intros all rest E. rewrite R, E. apply drop_lt_split.
    - rewrite R. unfold seek_raw. rewrite <- Hrange.
      destruct (st_impl st) as [rem|c cur|all rest] eqn:Ei; auto. cbn [range_impl] in *.
      destruct Hw as [_ [_ Hl]]. rewrite Ei in Hl. destruct Hl as [_ [Hset Hsub]].
      symmetry. rewrite (seek_list_natural is_del _ _ all x _ pre); auto.
      + apply drop_lt_seek_bound. rewrite Hrange. apply raw_range_lo.
      + rewrite Hrange. apply raw_range_asc.
      + rewrite Hrange. exact Hpre.
      + rewrite Hrange. apply raw_range_lo.
      + apply fwd_onto_del_nodel. intros e He. unfold raw in He. rewrite Ei in He.
        destruct (Hset e (Hsub e He)) as [v ->]. reflexivity.
  Qed.

  Lemma seek_raw_dec cfg x l :
    map (dec fm cfg) (seek_raw cfg x l) = seek_naive fm cfg x (map (dec fm cfg) l).
  Proof.
    unfold seek_raw, seek_naive, raw_spec.
    apply (seek_list_map (dec fm cfg) is_del idel (dec_fst cfg) (dec_del cfg)).
  Qed.

  (* SeekTo: exactly what moss does *)
  Theorem C09i_seek x st : wfI st ->
    wfI (fst (iter_seek x st)) /\
    st_cfg (fst (iter_seek x st)) = st_cfg st /\
    absI (fst (iter_seek x st)) = seek_naive fm (st_cfg st) x (absI st) /\
    snd (iter_seek x st) = nonempty (absI (fst (iter_seek x st))).
  Proof.
    intros Hwf. destruct (C09i_seek_raw x st Hwf) as [A [B [C D]]].
    split; auto. split; auto. unfold absI. rewrite B, C, nonempty_map. split.
    - apply seek_raw_dec.
    - now rewrite D, C.
  Qed.

  Lemma raw_spec_sorted cfg : asc (map fst (raw_spec fm cfg)).
  Proof. unfold raw_spec. rewrite map_map. apply raw_range_asc. Qed.

  Lemma raw_spec_lo cfg e : In e (raw_spec fm cfg) -> bleb (lo_key (c_start cfg)) (fst e) = true.
  Proof.
    unfold raw_spec. intros H. apply in_map_iff in H. destruct H as [e0 [<- H]].
    now apply raw_range_lo.
  Qed.

  (* on a suffix of the range the two seeks agree unless the walk runs onto a deletion *)
  Lemma seek_naive_natural cfg x l pre : raw_spec fm cfg = pre ++ l ->
    fwd_onto_del idel x l = false ->
    seek_naive fm cfg x l = seek_natural fm cfg x l.
  Proof.
    intros Hpre Hf. unfold seek_naive, seek_natural.
    apply (seek_list_natural idel _ _ (raw_spec fm cfg) x l pre); auto.
    - apply raw_spec_sorted.
    - apply raw_spec_lo.
  Qed.

  Lemma absI_suffix st : wfI st -> exists pre, raw_spec fm (st_cfg st) = pre ++ absI st.
  Proof.
    intros Hwf. destruct (raw_suffixI st Hwf) as [pre Hpre].
    exists (map (dec fm (st_cfg st)) pre). unfold raw_spec, absI. now rewrite Hpre, map_app.
  Qed.

  (* SeekTo is the natural seek unless it walks
     forward from a live entry onto a deletion entry *)
  Theorem C09i_seek_natural x st : wfI st -> fwd_onto_del idel x (absI st) = false ->
    absI (fst (iter_seek x st))
    = drop_lt (seek_bound (c_start (st_cfg st)) x) (raw_spec fm (st_cfg st)).
  Proof.
    intros Hwf Hf. destruct (C09i_seek x st Hwf) as [_ [_ [C _]]]. rewrite C.
    destruct (absI_suffix st Hwf) as [pre Hpre].
    now apply (seek_naive_natural _ x _ pre).
  Qed.

  (* x at or behind the current key, on a deletion entry, or after exhaustion *)
  Corollary C09i_seek_back x st : wfI st ->
    match absI st with
    | [] => True
    | (k, (o, _)) :: _ => is_del o = true \/ bleb x k = true
    end ->
    absI (fst (iter_seek x st))
    = drop_lt (seek_bound (c_start (st_cfg st)) x) (raw_spec fm (st_cfg st)).
  Proof.
    intros Hwf H. apply C09i_seek_natural; auto.
    destruct (absI st) as [|[k [o v]] t]; auto. cbn [fwd_onto_del]. unfold idel at 1. cbn [fst].
    destruct H as [->|H]; auto.
    assert (bltb k x = false) as -> by (now apply bltb_false). now rewrite andb_false_r.
  Qed.

  (* forward, and the first entry at or after x is live (or there is none) *)
  Corollary C09i_seek_forward_live x st : wfI st ->
    hd_isdel idel (drop_lt x (absI st)) = false ->
    absI (fst (iter_seek x st))
    = drop_lt (seek_bound (c_start (st_cfg st)) x) (raw_spec fm (st_cfg st)).
  Proof.
    intros Hwf H. apply C09i_seek_natural; auto.
    destruct (absI st) as [|[k a] t]; auto. cbn [fwd_onto_del]. rewrite H. apply andb_false_r.
  Qed.

  (* SeekTo x forward from a live entry, in closed form: the natural position,
     then on to the next live entry - unless the walk gives up, which it does
     not when the budget is unbounded or at least the number of entries left *)
  Theorem C09i_seek_forward x st k o v t : wfI st ->
    absI st = (k, (o, v)) :: t -> is_del o = false -> bltb k x = true ->
    let cfg := st_cfg st in
    let W := walk idel (walk_fuel (c_tries cfg) (absI st)) x (absI st) in
    (snd W = NMax -> absI (fst (iter_seek x st)) = drop_lt x (raw_spec fm cfg)) /\
    (snd W <> NMax ->
     absI (fst (iter_seek x st)) = skip_dels idel (drop_lt x (raw_spec fm cfg))) /\
    (c_tries cfg = 0 \/ length (absI st) <= c_tries cfg -> snd W <> NMax).
  Proof.
    intros Hwf Habs Ho Hlt. cbv zeta.
    destruct (C09i_seek x st Hwf) as [_ [_ [C _]]]. rewrite C. clear C.
    destruct (absI_suffix st Hwf) as [pre Hpre].
    assert (Hk : bleb (lo_key (c_start (st_cfg st))) k = true).
    { apply (raw_spec_lo (st_cfg st) (k, (o, v))). rewrite Hpre, Habs.
      apply in_or_app. right. simpl; auto. }
    assert (Hkx : bleb k x = true) by (now apply bltb_bleb).
    assert (Hsb : seek_bound (c_start (st_cfg st)) x = x).
    { apply seek_bound_id. eapply bleb_trans; eauto. }
    assert (Hd : drop_lt x (absI st) = drop_lt x (raw_spec fm (st_cfg st))).
    { rewrite Hpre, Habs. symmetry. apply drop_lt_suffix; auto.
      pose proof (raw_spec_sorted (st_cfg st)) as G. rewrite Hpre, Habs in G. exact G. }
    assert (Hasc : asc (map fst (absI st))).
    { pose proof (raw_spec_sorted (st_cfg st)) as G. rewrite Hpre, map_app in G.
      eapply asc_app_r; eauto. }
    assert (Hgt : bcmp x k = Gt) by (apply bcmp_lt_gt; now apply bltb_true).
    unfold seek_naive. rewrite Habs in Hd, Hasc |- *.
    rewrite (seek_list_forward idel _ _ _ x k (o, v) t Ho Hgt), Hsb.
    pose proof (walk_first_live idel (walk_fuel (c_tries (st_cfg st)) ((k, (o, v)) :: t)) x
                  ((k, (o, v)) :: t)) as Hf.
    pose proof (walk_enough idel (walk_fuel (c_tries (st_cfg st)) ((k, (o, v)) :: t)) x
                  ((k, (o, v)) :: t)) as He.
    rewrite (first_live_sorted idel x _ Hasc), Hd in Hf.
    destruct (walk idel (walk_fuel (c_tries (st_cfg st)) ((k, (o, v)) :: t)) x ((k, (o, v)) :: t))
      as [l' r].
    cbn [fst snd] in *. split; [|split].
    - intros ->. reflexivity.
    - intros Hr. rewrite <- (Hf Hr). destruct r; congruence.
    - intros Hb. apply He; unfold walk_fuel.
      + destruct (Nat.eqb (c_tries (st_cfg st)) 0) eqn:E0; [lia|]. apply Nat.eqb_neq in E0. lia.
      + destruct (Nat.eqb (c_tries (st_cfg st)) 0) eqn:E0; [lia|]. apply Nat.eqb_neq in E0.
        destruct Hb as [Hb|Hb]; [congruence|exact Hb].
  Qed.

  Theorem C09i_done_sticky st : wfI st -> absI st = [] ->
    iter_current fm st = RDone /\
    iter_current_ex st = None /\
    snd (iter_next st) = false /\
    absI (fst (iter_next st)) = [].
  Proof.
    intros Hw Ha. rewrite (C09i_current st Hw), (C09i_current_ex st Hw), Ha.
    destruct (C09i_next st Hw) as [_ [_ [B C]]]. rewrite B, C, Ha. auto.
  Qed.

  Lemma run_sim_incl : forall prog st, wfI st ->
    run_calls fm st prog
    = run_spec_incl_from (seek_naive fm) (st_cfg st) (absI st) prog.
  Proof.
    induction prog as [|c p IH]; intros st Hw; auto.
    destruct c as [|x|]; cbn [run_calls run_spec_incl_from].
    - destruct (C09i_next st Hw) as [A [B [C D]]].
      destruct (iter_next st) as [st' ok]. cbn [fst snd] in *.
      rewrite D. f_equal. rewrite <- C, <- B. now apply IH.
    - destruct (C09i_seek x st Hw) as [A [B [C D]]].
      destruct (iter_seek x st) as [st' ok]. cbn [fst snd] in *. cbv zeta.
      rewrite D, <- C. f_equal. rewrite <- B. now apply IH.
    - rewrite (C09i_current st Hw). f_equal. now apply IH.
  Qed.

  (* every program answers like the specification moss meets *)
  Theorem C09i_program_naive cfg prog : cfg_ok cfg -> c_incl cfg = true ->
    run_model fm cfg prog = run_spec_incl_naive fm cfg prog.
  Proof.
    intros Hc Hi. unfold run_model, run_spec_incl_naive. rewrite <- (C09i_start cfg Hc Hi).
    apply (run_sim_incl prog (iter_start cfg)). now apply C09i_wf_start.
  Qed.

  (* the iterator of the pinned commit (optimize() before the repair) is the same
     iterator in this mode: there is no leading-deletion skip to confuse it *)
  Theorem C09i_pre_fix_same cfg : c_incl cfg = true -> iter_start_pre_fix cfg = iter_start cfg.
  Proof.
    intros Hi. unfold iter_start_pre_fix, iter_start. f_equal.
    unfold optimize, num_cursors_at_start. rewrite (heap_start_incl cfg (c_start cfg) Hi).
    destruct (Nat.eqb (num_cursors (map (slice (c_start cfg) (c_end cfg)) (all_segs cfg))) 1) eqn:E; auto.
    unfold optimize_pre_fix.
    destruct (only_cursor (map (slice (c_start cfg) (c_end cfg)) (all_segs cfg))) as [i|] eqn:Eo; auto.
    apply only_cursor_num in Eo. rewrite Eo in E. discriminate.
  Qed.

  Corollary C09i_program_naive_pre_fix cfg prog : cfg_ok cfg -> c_incl cfg = true ->
    run_model_pre_fix fm cfg prog = run_spec_incl_naive fm cfg prog.
  Proof.
    intros Hc Hi. unfold run_model_pre_fix. rewrite (C09i_pre_fix_same cfg Hi).
    now apply C09i_program_naive.
  Qed.

  Lemma exec_sim_incl : forall prog st, wfI st ->
    wfI (exec_calls st prog) /\ st_cfg (exec_calls st prog) = st_cfg st /\
    absI (exec_calls st prog) = exec_spec_incl (seek_naive fm) (st_cfg st) (absI st) prog.
  Proof.
    induction prog as [|c p IH]; intros st Hw; [cbn; auto|].
    destruct c as [|x|]; cbn [exec_calls exec_spec_incl].
    - destruct (C09i_next st Hw) as [A [B [C D]]].
      destruct (IH _ A) as [E1 [E2 E3]]. rewrite E2, E3, B, C. auto.
    - destruct (C09i_seek x st Hw) as [A [B [C D]]].
      destruct (IH _ A) as [E1 [E2 E3]]. rewrite E2, E3, B, C. auto.
    - now apply IH.
  Qed.

  (* the state reached by any program, hence what CurrentEx reports there *)
  Theorem C09i_exec cfg prog : cfg_ok cfg -> c_incl cfg = true ->
    wfI (exec_calls (iter_start cfg) prog) /\
    absI (exec_calls (iter_start cfg) prog)
    = exec_spec_incl (seek_naive fm) cfg (raw_spec fm cfg) prog /\
    iter_current_ex (exec_calls (iter_start cfg) prog)
    = spec_current_ex (exec_spec_incl (seek_naive fm) cfg (raw_spec fm cfg) prog) /\
    iter_current fm (exec_calls (iter_start cfg) prog)
    = spec_current_incl (exec_spec_incl (seek_naive fm) cfg (raw_spec fm cfg) prog).
  Proof.
    intros Hc Hi. destruct (exec_sim_incl prog (iter_start cfg) (C09i_wf_start cfg Hc Hi)) as [A [B C]].
    rewrite (C09i_start cfg Hc Hi) in C. cbn [iter_start st_cfg] in C.
    split; auto. split; auto. split.
    - rewrite (C09i_current_ex _ A). now rewrite C.
    - rewrite (C09i_current _ A). now rewrite C.
  Qed.

  (* the natural specification on tame programs *)

  Lemma tame_spec : forall prog cfg l pre, raw_spec fm cfg = pre ++ l ->
    tame fm cfg l prog = true ->
    run_spec_incl_from (seek_naive fm) cfg l prog = run_spec_incl_from (seek_natural fm) cfg l prog.
  Proof.
    induction prog as [|c p IH]; intros cfg l pre Hpre Ht; auto.
    destruct c as [|x|]; cbn [run_spec_incl_from tame] in *.
    - f_equal. destruct l as [|e t]; cbn [tl] in *.
      + now apply (IH cfg [] pre).
      + apply (IH cfg t (pre ++ [e])); auto. now rewrite <- app_assoc.
    - apply andb_true_iff in Ht. destruct Ht as [Hf Ht]. apply negb_true_iff in Hf.
      cbv zeta. rewrite (seek_naive_natural cfg x l pre Hpre Hf). f_equal.
      destruct (drop_lt_split (seek_bound (c_start cfg) x) (raw_spec fm cfg)) as [pre' Hpre'].
      apply (IH cfg _ pre'); auto.
    - f_equal. now apply (IH cfg l pre).
  Qed.

  (* the natural specification, PARTIAL: only for programs in which
     no SeekTo walks forward from a live entry onto a deletion entry.  What is
     missing is refuted below (C09i_program_refuted). *)
  Theorem C09i_program_partial cfg prog : cfg_ok cfg -> c_incl cfg = true ->
    tame fm cfg (raw_spec fm cfg) prog = true ->
    run_model fm cfg prog = run_spec_incl fm cfg prog.
  Proof.
    intros Hc Hi Ht. rewrite (C09i_program_naive cfg prog Hc Hi).
    unfold run_spec_incl_naive, run_spec_incl. now apply (tame_spec prog cfg _ []).
  Qed.

  Lemma tame_nodel : forall prog cfg l,
    (forall e, In e (raw_spec fm cfg) -> idel (snd e) = false) ->
    (forall e, In e l -> idel (snd e) = false) ->
    tame fm cfg l prog = true.
  Proof.
    induction prog as [|c p IH]; intros cfg l Hall Hl; auto.
    destruct c as [|x|]; cbn [tame].
    - apply IH; auto. intros e He. apply Hl. destruct l; simpl in *; auto.
    - apply andb_true_iff. split.
      + apply negb_true_iff. now apply fwd_onto_del_nodel.
      + apply IH; auto. intros e He. apply Hall. eapply drop_lt_in; eauto.
    - now apply IH.
  Qed.

  (* no deletion entry in the range: the natural specification, every program *)
  Corollary C09i_program_nodel cfg prog : cfg_ok cfg -> c_incl cfg = true ->
    (forall e, In e (raw_range cfg) -> is_del (snd e) = false) ->
    run_model fm cfg prog = run_spec_incl fm cfg prog.
  Proof.
    intros Hc Hi Hn. apply C09i_program_partial; auto.
    assert (Hall : forall e, In e (raw_spec fm cfg) -> idel (snd e) = false).
    { intros e He. unfold raw_spec in He. apply in_map_iff in He. destruct He as [e0 [<- He]].
      now apply Hn. }
    now apply tame_nodel.
  Qed.

  (* the specification list, characterised *)

  Theorem raw_spec_in cfg k o v :
    In (k, (o, v)) (raw_spec fm cfg) <->
    in_range (c_start cfg) (c_end cfg) k = true /\
    newest (all_segs cfg) k = Some o /\
    v = sget fm (c_segs cfg) (ll_get (c_ll cfg)) k.
  Proof.
    unfold raw_spec, dec, raw_range, full_get. rewrite in_map_iff. split.
    - intros [[k' o'] [E H]]. cbn [fst snd] in E. injection E as -> -> <-.
      apply filter_In in H. destruct H as [H Hr]. apply view_in in H. auto.
    - intros [Hr [Hn ->]]. exists (k, o). split; auto.
      apply filter_In. split; auto. now apply view_in.
  Qed.

  Theorem raw_spec_value cfg k o v : In (k, (o, v)) (raw_spec fm cfg) ->
    match o with
    | OSet b => v = Some b
    | ODel => v = None
    | OMerge b => exists older, v = fm k older b
    end.
  Proof.
    intros H. apply raw_spec_in in H. destruct H as [_ [Hn ->]].
    fold (full_get fm cfg k). rewrite full_get_bridge.
    destruct (sget_newest_some fm (all_segs cfg) no_below k o Hn) as [older ->].
    destruct o; cbn [apply_op]; eauto.
  Qed.

End Incl.

(* the natural specification is false of the model, and of moss: the same
   calls on the real iterator (both the heap iterator and iteratorSingle,
   checked with a Go test against the pinned sources) give the answers computed here *)

Local Open Scope N_scope.

(* one segment, no lower level: iteratorSingle.  "a" live, "c" deleted, "e" live *)
Definition cfg_i1 : config :=
  mk_cfg [[(kA, OSet [1]); (kC, ODel); (kE, OSet [5])]] None None None true 100.

(* two segments: the heap iterator *)
Definition cfg_i2 : config :=
  mk_cfg [[(kA, OSet [1]); (kC, ODel); (kE, OSet [5])]; [(kB, OSet [2])]] None None None true 100.

(* nothing but deletion entries at or after "c" *)
Definition cfg_i3 : config :=
  mk_cfg [[(kA, OSet [1]); (kC, ODel); (kE, ODel)]; [(kB, OSet [2])]] None None None true 100.

(* cfg_i2 with a naive-seek budget of 1: the walk gives up and SeekTo restarts *)
Definition cfg_i4 : config :=
  mk_cfg [[(kA, OSet [1]); (kC, ODel); (kE, OSet [5])]; [(kB, OSet [2])]] None None None true 1.

(* the natural specification is REFUTED for arbitrary programs: SeekTo("c") from "a"
   lands on "e", stepping over the deletion entry "c" *)
Theorem C09i_program_refuted :
  exists cfg prog, cfg_ok cfg /\ c_incl cfg = true /\
    run_model fm_append cfg prog <> run_spec_incl fm_append cfg prog.
Proof.
  exists cfg_i2, [CSeek kC; CCurrent]. split; [solve_cfg_ok|]. split; [reflexivity|].
  vm_compute. discriminate.
Qed.

Theorem C09i_seek_refuted :
  exists cfg x, cfg_ok cfg /\ c_incl cfg = true /\
    absI fm_append (fst (iter_seek x (iter_start cfg)))
    <> drop_lt (seek_bound (c_start cfg) x) (raw_spec fm_append cfg).
Proof.
  exists cfg_i2, kC. split; [solve_cfg_ok|]. split; [reflexivity|].
  vm_compute. discriminate.
Qed.

(* the same SeekTo("c") issued twice gives two different positions *)
Example ex_incl_heap :
  run_model fm_append cfg_i2 [CCurrent; CSeek kC; CCurrent; CSeek kC; CCurrent]
  = [RCur kA (Some [1]); ROk; RCur kE (Some [5]); ROk; RDeleted] /\
  run_spec_incl fm_append cfg_i2 [CCurrent; CSeek kC; CCurrent; CSeek kC; CCurrent]
  = [RCur kA (Some [1]); ROk; RDeleted; ROk; RDeleted] /\
  run_spec_incl_naive fm_append cfg_i2 [CCurrent; CSeek kC; CCurrent; CSeek kC; CCurrent]
  = [RCur kA (Some [1]); ROk; RCur kE (Some [5]); ROk; RDeleted].
Proof. repeat split; vm_compute; reflexivity. Qed.

Example ex_incl_single :
  (match st_impl (iter_start cfg_i1) with ISingle _ _ => true | _ => false end) = true /\
  run_model fm_append cfg_i1 [CCurrent; CSeek kC; CCurrent; CSeek kC; CCurrent]
  = [RCur kA (Some [1]); ROk; RCur kE (Some [5]); ROk; RDeleted] /\
  run_spec_incl fm_append cfg_i1 [CCurrent; CSeek kC; CCurrent; CSeek kC; CCurrent]
  = [RCur kA (Some [1]); ROk; RDeleted; ROk; RDeleted].
Proof. repeat split; vm_compute; reflexivity. Qed.

(* SeekTo("c") reports ErrIteratorDone although "c" and "e" are in the
   enumeration; asked again, it finds "c" *)
Example ex_incl_done :
  run_model fm_append cfg_i3 [CSeek kC; CCurrent; CSeek kC; CCurrent; CNext; CCurrent; CNext]
  = [RDone; RDone; ROk; RDeleted; ROk; RDeleted; RDone] /\
  run_spec_incl fm_append cfg_i3 [CSeek kC; CCurrent; CSeek kC; CCurrent; CNext; CCurrent; CNext]
  = [ROk; RDeleted; ROk; RDeleted; ROk; RDeleted; RDone].
Proof. split; vm_compute; reflexivity. Qed.

(* the answer depends on DefaultNaiveSeekToMaxTries *)
Example ex_incl_budget :
  run_model fm_append cfg_i4 [CSeek kC; CCurrent] = [ROk; RDeleted] /\
  run_model fm_append cfg_i2 [CSeek kC; CCurrent] = [ROk; RCur kE (Some [5])].
Proof. split; vm_compute; reflexivity. Qed.

(* a full example in the mode: shadowing, merge over an older Set, lower level,
   bounds, backward/forward/past-the-end seeks, seek after exhaustion *)
Example ex_incl_program :
  let cfg := mk_cfg [ex_s1; ex_s2] (Some ex_ll) (Some kA) (Some kE) true 100 in
  let prog := [CCurrent; CNext; CCurrent; CNext; CCurrent; CNext; CCurrent; CNext; CCurrent;
               CSeek kB; CCurrent; CSeek [0]; CCurrent; CSeek kE; CCurrent; CSeek kD; CCurrent] in
  run_model fm_append cfg prog = run_spec_incl_naive fm_append cfg prog /\
  run_model fm_append cfg prog
  = [RDeleted; ROk; RCur kB (Some [2]); ROk; RCur kC (Some [3; 58; 120]); ROk; RDeleted; RDone; RDone;
     ROk; RCur kB (Some [2]); ROk; RDeleted; RDone; RDone; ROk; RDeleted] /\
  raw_spec fm_append cfg
  = [(kA, (ODel, None)); (kB, (OSet [2], Some [2])); (kC, (OMerge [120], Some [3; 58; 120]));
     (kD, (ODel, None))].
Proof. repeat split; vm_compute; reflexivity. Qed.

Print Assumptions C09i_wf_start.
Print Assumptions C09i_start.
Print Assumptions C09i_next.
Print Assumptions C09i_current.
Print Assumptions C09i_current_ex.
Print Assumptions C09i_seek.
Print Assumptions C09i_seek_natural.
Print Assumptions C09i_seek_back.
Print Assumptions C09i_seek_forward_live.
Print Assumptions C09i_seek_forward.
Print Assumptions C09i_done_sticky.
Print Assumptions C09i_program_naive.
Print Assumptions C09i_program_naive_pre_fix.
Print Assumptions C09i_exec.
Print Assumptions C09i_program_partial.
Print Assumptions C09i_program_nodel.
Print Assumptions raw_spec_in.
Print Assumptions raw_spec_value.
Print Assumptions raw_spec_sorted.
Print Assumptions C09i_program_refuted.
Print Assumptions C09i_seek_refuted.
