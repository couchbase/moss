(* PrevTreeFacts.v — proofs about the footer chain with tree footers (PrevTree.v). *)
From Coq Require Import List NArith Bool Lia Arith.
From Moss Require Import ListFacts Bytes Segment Tree TreeRun PrevTree.
Import ListNotations.

Definition tlinks_ok (f : tfile) : Prop :=
  forall i fi, nth_error f i = Some fi -> forall j, tf_prev fi = Some j -> j < i.

Definition tsegs_ok (f : tfile) : Prop :=
  forall x, In x f -> fn_any_segs (tf_node x) = true.

Lemma tcurrent_lt f i : tcurrent f = Some i -> i < length f.
Proof. destruct f; simpl; [discriminate|]. intros [= <-]. lia. Qed.

Lemma tcurrent_snoc f x : tcurrent (f ++ [x]) = Some (length f).
Proof.
  unfold tcurrent. destruct (f ++ [x]) eqn:E.
  - destruct f; discriminate.
  - f_equal. rewrite <- E, app_length. simpl. lia.
Qed.

Lemma tlinks_ok_snoc f x :
  tlinks_ok f -> (forall j, tf_prev x = Some j -> j < length f) -> tlinks_ok (f ++ [x]).
Proof.
  intros H Hx i fi Hn j Hj. apply nth_error_snoc_inv in Hn.
  destruct Hn as [Hn|[-> ->]]; [eapply H; eauto|auto].
Qed.

Lemma tsegs_ok_snoc f x : tsegs_ok f -> fn_any_segs (tf_node x) = true -> tsegs_ok (f ++ [x]).
Proof.
  intros H Hx y Hy. apply in_app_or in Hy. destruct Hy as [Hy|[<-|[]]]; auto.
Qed.

(* SnapshotPrevious only ever leads to an older footer *)
Lemma th_previous_lt f i j : tlinks_ok f -> th_previous f i = Some j -> j < i.
Proof.
  unfold th_previous. intros H. destruct (nth_error f i) as [fi|] eqn:E; [|discriminate].
  destruct (fn_any_segs (tf_node fi)); [|discriminate]. intros Hj. eapply H; eauto.
Qed.

Lemma th_walk_lt f : tlinks_ok f -> forall fuel i j, In j (th_walk fuel f i) -> j < i.
Proof.
  intros H. induction fuel as [|k IH]; simpl; intros i j Hj; [contradiction|].
  destruct (th_previous f i) as [p|] eqn:E; [|contradiction].
  pose proof (th_previous_lt f i p H E). destruct Hj as [<-|Hj]; auto.
  specialize (IH p j Hj). lia.
Qed.

(* appending a footer changes no older footer and no walk that starts at an older footer *)
Lemma th_previous_stable f x i : i < length f -> th_previous (f ++ [x]) i = th_previous f i.
Proof. intros Hi. unfold th_previous. now rewrite nth_error_snoc_old. Qed.

Lemma th_walk_stable f x : tlinks_ok f ->
  forall fuel i, i < length f -> th_walk fuel (f ++ [x]) i = th_walk fuel f i.
Proof.
  intros H. induction fuel as [|k IH]; simpl; intros i Hi; [reflexivity|].
  rewrite th_previous_stable by auto.
  destruct (th_previous f i) as [p|] eqn:E; [|reflexivity].
  pose proof (th_previous_lt f i p H E). rewrite IH by lia. reflexivity.
Qed.

(* the fuel never decides: any fuel above the starting index gives the same walk *)
Lemma th_walk_fuel f : tlinks_ok f ->
  forall fuel fuel' i, i < fuel -> i < fuel' -> th_walk fuel f i = th_walk fuel' f i.
Proof.
  intros H. induction fuel as [|k IH]; intros fuel' i Hi Hi'; [lia|].
  destruct fuel' as [|k']; [lia|]. simpl.
  destruct (th_previous f i) as [p|] eqn:E; [|reflexivity].
  pose proof (th_previous_lt f i p H E). f_equal. apply IH; lia.
Qed.

Definition bs_at (f : tfile) (j : nat) : list tbatch :=
  match nth_error f j with Some x => tf_bs x | None => [] end.

Lemma walk_contents_eq f i : tcurrent f = Some i ->
  walk_contents f = map (bs_at f) (th_walk (length f) f i).
Proof. intros H. unfold walk_contents. now rewrite H. Qed.

Lemma map_bs_at_stable f x l : (forall j, In j l -> j < length f) ->
  map (bs_at (f ++ [x])) l = map (bs_at f) l.
Proof.
  intros H. apply map_ext_in. intros j Hj. unfold bs_at. now rewrite nth_error_snoc_old by auto.
Qed.

(* the walk from a freshly appended footer that links to the footer that was current *)
Lemma walk_contents_linked f x c :
  tlinks_ok f -> tcurrent f = Some c -> tf_prev x = Some c -> fn_any_segs (tf_node x) = true ->
  walk_contents (f ++ [x]) = bs_at f c :: walk_contents f.
Proof.
  intros Hl Hc Hp Hs.
  pose proof (tcurrent_lt f c Hc) as Hlt.
  rewrite (walk_contents_eq (f ++ [x]) (length f)) by apply tcurrent_snoc.
  rewrite (walk_contents_eq f c Hc).
  rewrite app_length. simpl. replace (length f + 1) with (S (length f)) by lia.
  simpl. unfold th_previous at 1. rewrite nth_error_snoc_last, Hs, Hp. simpl.
  rewrite th_walk_stable by auto.
  f_equal.
  - unfold bs_at. now rewrite nth_error_snoc_old.
  - apply map_bs_at_stable. intros j Hj. pose proof (th_walk_lt f Hl _ _ _ Hj). lia.
Qed.

Lemma walk_contents_unlinked f x : tf_prev x = None -> walk_contents (f ++ [x]) = [].
Proof.
  intros Hp. rewrite (walk_contents_eq (f ++ [x]) (length f)) by apply tcurrent_snoc.
  rewrite app_length. simpl. replace (length f + 1) with (S (length f)) by lia. simpl.
  unfold th_previous. rewrite nth_error_snoc_last, Hp. now destruct (fn_any_segs _).
Qed.

Lemma walk_contents_single x : tf_prev x = None -> walk_contents [x] = [].
Proof. intros Hp. exact (walk_contents_unlinked [] x Hp). Qed.

(* ---- the invariant that ties a file to the history that produced it ------------- *)
Record tinv (f : tfile) (chain file : list (list tbatch)) : Prop := {
  ti_links : tlinks_ok f;
  ti_segs : tsegs_ok f;
  ti_file : map tf_bs f = file;
  ti_chain : chain = match f with [] => [] | _ => tcur_bs f :: walk_contents f end
}.

Lemma tcur_bs_snoc f x : tcur_bs (f ++ [x]) = tf_bs x.
Proof. unfold tcur_bs, tcur_footer. now rewrite tcurrent_snoc, nth_error_snoc_last. Qed.

Lemma tcur_bs_at f c : tcurrent f = Some c -> tcur_bs f = bs_at f c.
Proof. intros H. unfold tcur_bs, tcur_footer, bs_at. now rewrite H. Qed.

Definition ev_segs_ok (e : tev) : Prop :=
  match e with ERound _ _ n => fn_any_segs n = true | ERevert _ => True end.

Lemma tinv_init : tinv [] [] [].
Proof.
  constructor; try reflexivity.
  - intros i fi Hn. destruct i; discriminate.
  - intros x [].
Qed.

Lemma chain_head f chain file : tinv f chain file ->
  match chain with c :: _ => c | [] => [] end = tcur_bs f.
Proof.
  intros [_ _ _ Hc]. destruct f as [|a f]; subst chain; reflexivity.
Qed.

Lemma tinv_linked f chain file x :
  tinv f chain file -> f <> [] -> tf_prev x = tcurrent f -> fn_any_segs (tf_node x) = true ->
  tinv (f ++ [x]) (tf_bs x :: chain) (file ++ [tf_bs x]).
Proof.
  intros [Hl Hs Hf Hc] Hne Hp Hx.
  destruct (tcurrent f) as [c|] eqn:Ec; [|destruct f; [contradiction|discriminate]].
  constructor.
  - apply tlinks_ok_snoc; auto. intros j Hj. rewrite Hp in Hj. injection Hj as <-. now apply tcurrent_lt.
  - now apply tsegs_ok_snoc.
  - rewrite map_app, Hf. reflexivity.
  - destruct (f ++ [x]) eqn:E; [now apply snoc_not_nil in E|]. rewrite <- E.
    rewrite tcur_bs_snoc. f_equal.
    rewrite (walk_contents_linked f x c) by auto.
    rewrite Hc. destruct f; [contradiction|]. now rewrite (tcur_bs_at _ c Ec).
Qed.

Lemma tinv_unlinked f chain file x :
  tinv f chain file -> tf_prev x = None -> fn_any_segs (tf_node x) = true ->
  tinv (f ++ [x]) [tf_bs x] (file ++ [tf_bs x]).
Proof.
  intros [Hl Hs Hf Hc] Hp Hx. constructor.
  - apply tlinks_ok_snoc; auto. intros j Hj. rewrite Hp in Hj. discriminate.
  - now apply tsegs_ok_snoc.
  - rewrite map_app, Hf. reflexivity.
  - destruct (f ++ [x]) eqn:E; [now apply snoc_not_nil in E|]. rewrite <- E.
    now rewrite tcur_bs_snoc, walk_contents_unlinked.
Qed.

Lemma tinv_newfile x : tf_prev x = None -> fn_any_segs (tf_node x) = true ->
  tinv [x] [tf_bs x] [tf_bs x].
Proof.
  intros Hp Hx. pose proof (tinv_unlinked [] [] [] x tinv_init Hp Hx) as H. exact H.
Qed.

Lemma tinv_step f chain file e f' :
  tinv f chain file -> ev_segs_ok e -> th_step f e = Some f' ->
  tinv f' (fst (spec_step (chain, file) e)) (snd (spec_step (chain, file) e)).
Proof.
  intros Hinv Hok Hstep. pose proof (chain_head f chain file Hinv) as Hhd.
  destruct e as [k b n|t]; simpl in *.
  - injection Hstep as <-. rewrite Hhd.
    destruct k; simpl.
    + (* append *)
      destruct f as [|a f0] eqn:Ef.
      * (* the first footer of the very first file *)
        destruct Hinv as [_ _ Hf Hc]. simpl in Hf. subst file chain. unfold th_round. simpl.
        now apply tinv_newfile.
      * rewrite <- Ef in *.
        apply (tinv_linked f chain file); auto. subst f; discriminate.
    + now apply (tinv_unlinked f chain file).
    + now apply tinv_newfile.
  - unfold th_revert in Hstep.
    destruct (nth_error f t) as [ft|] eqn:Et; [|discriminate].
    destruct (tcur_footer f) as [fc|] eqn:Ec; [|discriminate].
    destruct (fn_any_segs (tf_node ft) || fn_any_segs (tf_node fc)); [|discriminate].
    injection Hstep as <-.
    assert (Hfile : nth_error file t = Some (tf_bs ft)).
    { destruct Hinv as [_ _ Hf _]. rewrite <- Hf. now rewrite nth_error_map, Et. }
    rewrite Hfile. simpl.
    assert (Hne : f <> []) by (intros ->; destruct t; discriminate).
    apply (tinv_linked f chain file {| tf_node := tf_node ft; tf_bs := tf_bs ft; tf_prev := tcurrent f |}); auto.
    simpl. destruct Hinv as [_ Hs _ _]. apply Hs. eapply nth_error_In; eauto.
Qed.

Lemma tinv_run evs : forall f chain file f',
  tinv f chain file -> Forall ev_segs_ok evs -> th_run f evs = Some f' ->
  tinv f' (fst (fold_left spec_step evs (chain, file))) (snd (fold_left spec_step evs (chain, file))).
Proof.
  induction evs as [|e r IH]; intros f chain file f' Hinv Hok Hrun.
  - simpl in *. injection Hrun as <-. exact Hinv.
  - inversion Hok as [|? ? He Hr]; subst. simpl in Hrun.
    destruct (th_step f e) as [f1|] eqn:E; [|discriminate].
    pose proof (tinv_step f chain file e f1 Hinv He E) as H1.
    change (fold_left spec_step (e :: r) (chain, file))
      with (fold_left spec_step r (spec_step (chain, file) e)).
    rewrite (surjective_pairing (spec_step (chain, file) e)).
    exact (IH f1 _ _ f' H1 Hr Hrun).
Qed.

(* MAIN: for every history of rounds (appended, compacted, moved to a new file) and
   reverts that the store accepts, walking back from the current snapshot yields exactly
   the contents exposed since the last compaction, newest first, then nil; and the
   current content is the head of that list. *)
Theorem walk_is_history evs f :
  Forall ev_segs_ok evs -> th_run [] evs = Some f -> f <> [] ->
  tcur_bs f :: walk_contents f = fst (spec_run evs).
Proof.
  intros Hok Hrun Hne.
  pose proof (tinv_run evs [] [] [] f tinv_init Hok Hrun) as [_ _ _ Hc].
  unfold spec_run. rewrite Hc. destruct f; [contradiction|reflexivity].
Qed.

(* a revert the history model accepts: exact content, new current, walkable, nothing older changed *)
Theorem tree_revert_is_exact f t f' ft i :
  tlinks_ok f -> nth_error f t = Some ft -> tcurrent f = Some i -> th_revert f t = Some f' ->
  tcurrent f' = Some (length f) /\
  (exists fr, nth_error f' (length f) = Some fr /\ tf_node fr = tf_node ft /\ tf_bs fr = tf_bs ft) /\
  (fn_any_segs (tf_node ft) = true ->
     forall fuel, th_walk (S fuel) f' (length f) = i :: th_walk fuel f i) /\
  (forall j, j < length f -> nth_error f' j = nth_error f j).
Proof.
  intros Hl Ht Hi Hr. unfold th_revert in Hr. rewrite Ht in Hr.
  destruct (tcur_footer f) as [fc|]; [|discriminate].
  destruct (_ || _); [|discriminate]. injection Hr as <-.
  repeat split.
  - apply tcurrent_snoc.
  - eexists. rewrite nth_error_snoc_last. simpl. auto.
  - intros Hs fuel. simpl. unfold th_previous at 1. rewrite nth_error_snoc_last. simpl.
    rewrite Hs, Hi. f_equal. apply th_walk_stable; auto. now apply tcurrent_lt.
  - intros j Hj. now apply nth_error_snoc_old.
Qed.

(* every footer of the current file whose tree holds a segment can be reverted to *)
Theorem tree_revert_defined f t ft :
  f <> [] -> nth_error f t = Some ft -> fn_any_segs (tf_node ft) = true ->
  exists f', th_revert f t = Some f'.
Proof.
  intros Hne Ht Hs. unfold th_revert. rewrite Ht.
  destruct (tcur_footer f) as [fc|] eqn:Ec.
  - rewrite Hs. simpl. eauto.
  - exfalso. unfold tcur_footer in Ec. destruct (tcurrent f) as [c|] eqn:E.
    + apply tcurrent_lt in E. apply nth_error_None in Ec. lia.
    + destruct f; [contradiction|discriminate].
Qed.

(* a footer whose tree holds no segment at all leads nowhere (the file cannot be found) *)
Theorem tree_previous_needs_a_segment f i fi :
  nth_error f i = Some fi -> fn_any_segs (tf_node fi) = false -> th_previous f i = None.
Proof. intros Hn Hs. unfold th_previous. now rewrite Hn, Hs. Qed.

(* batches persisted after a revert build on the reverted content *)
Theorem tree_round_after_revert_builds_on_target f t f' ft k b n :
  nth_error f t = Some ft -> th_revert f t = Some f' ->
  tcur_bs (th_round k f' b n) = tf_bs ft ++ [b].
Proof.
  intros Ht Hr. unfold th_revert in Hr. rewrite Ht in Hr.
  destruct (tcur_footer f); [|discriminate]. destruct (_ || _); [|discriminate]. injection Hr as <-.
  destruct k; unfold th_round; [now rewrite !tcur_bs_snoc..|].
  unfold tcur_bs at 1, tcur_footer. simpl. now rewrite tcur_bs_snoc.
Qed.

(* ---- the pinned code: refuted ------------------------------------------------- *)
Definition seg1 : segment := [([97%N], OSet [49%N])].     (* a = "1" *)
Definition seg2 : segment := [([97%N], OSet [50%N])].     (* a = "2" *)
Definition kid : cname := [99%N; 49%N].                   (* "c1" *)

(* F37: all data in a child collection, two appended rounds *)
Definition child_only_1 : fnode := FN [] 0 [(kid, FN [seg1] 1 [])].
Definition child_only_2 : fnode := FN [] 0 [(kid, FN [seg1; seg2] 1 [])].
Definition b_child (s : segment) : tbatch := TB [] [(kid, Some (TB s []))].
Definition f37_file : tfile :=
  th_round TKAppend (th_round TKAppend [] (b_child seg1) child_only_1) (b_child seg2) child_only_2.

Theorem previous_pinned_refuted_F37 :
  exists f i j, th_run [] [ERound TKAppend (b_child seg1) child_only_1; ERound TKAppend (b_child seg2) child_only_2] = Some f /\
    tcurrent f = Some i /\ th_previous f i = Some j /\ th_previous_pinned f i = None /\
    walk_contents f = [[b_child seg1]].
Proof. exists f37_file, 1, 0. repeat split; reflexivity. Qed.

(* F38: the target has a child collection without persisted segments (created by an empty child batch) *)
Definition with_empty_child : fnode := FN [seg1] 0 [(kid, FN [] 1 [])].
Definition with_empty_child_2 : fnode := FN [seg1; seg2] 0 [(kid, FN [] 1 [])].
Definition b_top_and_empty_child (s : segment) : tbatch := TB s [(kid, Some (TB [] []))].
Definition f38_file : tfile :=
  th_round TKAppend (th_round TKAppend [] (b_top_and_empty_child seg1) with_empty_child) (TB seg2 []) with_empty_child_2.

Theorem revert_pinned_refuted_F38 :
  exists f t f', tlinks_ok f /\ nth_error f t <> None /\
    th_revert f t = Some f' /\ th_revert_pinned f t = None /\
    tcur_bs f' = [b_top_and_empty_child seg1].
Proof.
  exists f38_file, 0. eexists. split; [|repeat split; try reflexivity; discriminate].
  intros i fi Hn j Hj. destruct i as [|[|i]]; simpl in Hn.
  - injection Hn as <-. discriminate.
  - injection Hn as <-. simpl in Hj. injection Hj as <-. lia.
  - destruct i; discriminate.
Qed.

(* ... and a child-only target is refused by the pinned revert as well *)
Theorem revert_pinned_refuted_child_only :
  exists f t f', th_revert f t = Some f' /\ th_revert_pinned f t = None /\ tcur_bs f' = [b_child seg1].
Proof. exists f37_file, 0. eexists. repeat split; reflexivity. Qed.

(* F42: with the pinned back link the walk from the first footer of a new file never ends
   (whatever the fuel, it is used up) - where the repaired code, and the specification, say nil *)
Theorem new_file_walk_pinned_never_ends_F42 f b n :
  fn_any_segs n = true ->
  forall fuel, th_walk fuel (th_round_newfile_pinned f b n) 0 = repeat 0 fuel.
Proof.
  intros Hs. induction fuel as [|k IH]; [reflexivity|].
  simpl. unfold th_previous. simpl. rewrite Hs. simpl. f_equal. exact IH.
Qed.

Theorem new_file_walk_is_nil f b n fuel : th_walk fuel (th_round TKNewFile f b n) 0 = [].
Proof. destruct fuel; [reflexivity|]. simpl. unfold th_previous. simpl. now destruct (fn_any_segs n). Qed.

(* non-vacuity of the main theorem: a history with child-only rounds, a compaction, a revert *)
Example walk_is_history_applies :
  let evs := [ERound TKAppend (b_child seg1) child_only_1;
              ERound TKAppend (b_child seg2) child_only_2;
              ERevert 0;
              ERound TKAppend (TB seg2 []) (FN [seg2] 0 [(kid, FN [seg1] 1 [])])] in
  Forall ev_segs_ok evs /\
  exists f, th_run [] evs = Some f /\ f <> [] /\
    tcur_bs f :: walk_contents f =
      [[b_child seg1; TB seg2 []]; [b_child seg1]; [b_child seg1; b_child seg2]; [b_child seg1]].
Proof.
  split; [repeat constructor|]. eexists. split; [reflexivity|]. split; [discriminate|reflexivity].
Qed.

Print Assumptions walk_is_history.
Print Assumptions tree_revert_is_exact.
Print Assumptions previous_pinned_refuted_F37.
Print Assumptions revert_pinned_refuted_F38.
