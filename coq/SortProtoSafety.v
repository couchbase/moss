(* C17 -- the deferred-sort ticket protocol: the invariant is inductive;
   safety and progress theorems for the current programs. *)

From Coq Require Import List Bool Arith ZArith Lia.
Import ListNotations.
From Moss Require Import SortProto SortProtoFacts.

Lemma step_frame_next : forall st g ch f x' f' k' v,
  Inv st -> g_frame (gs st g) = Some f ->
  fstep g (ss st (f_seg f)) (g_known (gs st g) (f_seg f)) f = FNext x' f' k' v ->
  Inv (step current_progs st g ch).
Proof.
  intros st g ch f x' f' k' v (Hb & Hs & Hg) Hfr Hst. unfold step. rewrite Hfr, Hst.
  remember (f_seg f) as s eqn:Hseg.
  set (G' := mk_gst _ _ _ _ _ _ _).
  assert (Hoth : forall h, h <> g -> upd (gs st) g G' h = gs st h) by (intros; now apply upd_other).
  assert (Hfr' : g_frame (upd (gs st) g G' g) = Some f') by now rewrite upd_same.
  assert (Hkn' : g_known (upd (gs st) g G' g) s = k') by (rewrite upd_same; apply upd_same).
  destruct (Hg g) as (Hgf & Hgk). pose proof (Hgf f Hfr) as Hfi. rewrite <- Hseg in Hfi.
  destruct (fstep_next (gs st) (upd (gs st) g G') g (ss st s) _ f x' f' k' v s
              (eq_sym Hseg) Hfr eq_refl Hfi (Hs s) Hst Hoth Hfr' Hkn')
    as [Hv Hseg' Hsy' Hkm Hf' Hstab Hsi'].
  split; [subst v; cbn; now rewrite Hb|]. split; cbn.
  - intros s1. destruct (Nat.eq_dec s1 s) as [->|Hne]; [now rewrite upd_same|].
    rewrite upd_other by assumption.
    apply (sinv_passive (gs st) (upd (gs st) g G') g (ss st s1) s1 (Hs s1) Hoth).
    + rewrite upd_same. cbn. rewrite upd_other by assumption. auto.
    + intros f0 Hf0 Hs0. rewrite Hfr in Hf0. injection Hf0 as <-. congruence.
  - intros h. destruct (Nat.eq_dec h g) as [->|Hne].
    + rewrite upd_same. split.
      * intros f0 Hf0. injection Hf0 as <-. rewrite Hseg', upd_same. cbn. now rewrite upd_same.
      * assert (Hsf : forall s1, sfor (ss st) (gs st g) s1 = true ->
                                 sfor (upd (ss st) s x') G' s1 = true).
        { intros s1. unfold sfor. cbn. unfold upd. destruct (Nat.eqb_spec s1 s) as [->|_]; [|auto].
          destruct Hstab as (-> & _). intros H. apply orb_true_iff in H. apply orb_true_iff.
          destruct H; auto. }
        cbn [g_kind G']. destruct (g_kind (gs st g)).
        -- destruct Hgk as (Hx & _). congruence.
        -- eapply einv_mono; try eassumption; try reflexivity.
           cbn. rewrite Hfr. split; congruence.
        -- destruct Hgk as (H1 & H2 & H3). rewrite Hfr in H3. destruct H3 as (H3 & H4 & H5).
           cbn. repeat split; congruence.
        -- contradiction.
    + rewrite upd_other by assumption. eapply ginv_other; eauto.
      intros Ht. eapply sinv_ticket; eauto.
Qed.

Lemma cov_weaken : forall SS G lo hi z z', (z <= z')%Z -> cov SS G lo hi z -> cov SS G lo hi z'.
Proof. unfold cov; intros SS G lo hi z z' Hle H s Hs Hr. apply H; [lia|assumption]. Qed.

Lemma cov_pred : forall SS G lo hi z,
  cov SS G lo hi z -> sfor SS G (Z.to_nat z) = true -> cov SS G lo hi (z - 1).
Proof.
  intros SS G lo hi z H Hz s Hs Hr. destruct (Z.eq_dec (Z.of_nat s) z) as [<-|Hne].
  - now rewrite Nat2Z.id in Hz.
  - apply H; [lia|assumption].
Qed.

Lemma step_frame_ret : forall st g ch f b,
  Inv st -> g_frame (gs st g) = Some f ->
  fstep g (ss st (f_seg f)) (g_known (gs st g) (f_seg f)) f = FRet b ->
  Inv (step current_progs st g ch).
Proof.
  intros st g ch f b HI Hfr Hst. pose proof HI as (Hb & Hs & Hg). unfold step. rewrite Hfr, Hst.
  destruct (Hg g) as (Hgf & Hgk).
  pose proof (fstep_ret _ _ _ _ _ (Hgf f Hfr) Hst) as Hret.
  assert (Hns : forall f0, g_frame (gs st g) = Some f0 ->
            ~ sorter_at f0 (ss st (f_seg f0)) (g_known (gs st g) (f_seg f0))).
  { intros f0 Hf0 Hso. rewrite Hfr in Hf0. injection Hf0 as <-. eapply sorter_not_ret; eauto. }
  destruct (g_kind (gs st g)) eqn:Hkind.
  - destruct Hgk as (Hx & _). congruence.
  - (* ensureSorted: the call returns into one of the two loops *)
    apply einv_iff in Hgk.
    destruct Hgk as [? ? Hx|? ? Hx|? ? Hx ?|z Hc Hl Hz Hcov Hcall|? ? Hx ?|? ? Hx
                    |z Hc Hl Hz Hcov Hcall|? ? Hx ?]; try congruence;
      unfold call_ok in Hcall; rewrite Hfr in Hcall; destruct Hcall as (Hsg & Hlo & Hsy);
      rewrite Hl; apply (inv_local_ensure st g lo hi _ HI Hns); cbn; trivial.
    + apply (InLoop1 _ _ _ _ (z - 1)); cbn; trivial; [lia|].
      intros Hsb. apply andb_true_iff in Hsb. destruct Hsb as (Hs1 & ->).
      apply cov_pred; [auto|]. rewrite <- Hsg. exact Hret.
    + apply (InLoop2 _ _ _ _ (z - 1)); cbn; trivial; [lia|].
      destruct b; [|congruence]. apply cov_pred; [assumption|]. rewrite <- Hsg. exact Hret.
  - (* RequestSort *)
    destruct Hgk as (H1 & H2 & H3). rewrite Hfr in H3. destruct H3 as (H3 & H4 & H5). rewrite H1.
    apply inv_local; [assumption|reflexivity|assumption|]. split; [intros f0 Hf0; discriminate|].
    cbn. rewrite ?Hkind. split; [reflexivity|]. split; [assumption|].
    intros b0 Hb0. injection Hb0 as <-. subst s sync. destruct b; exact Hret.
  - contradiction.
Qed.

Lemma stable_read : forall g x, stable g x (mark_read x).
Proof. intros; repeat split; cbn; tauto. Qed.

Lemma known_done : forall GS x s g, sinv GS x s -> s_nil x || g_known (GS g) s = true ->
  s_inw x = 0 /\ (s_nil x = false -> s_done x = true).
Proof.
  intros GS x s g H Hk. destruct (sinv_counts _ _ _ H) as (_ & _ & Hw).
  assert (Hd : s_nil x = false -> s_done x = true).
  { intros Hn. rewrite Hn in Hk. apply sinv_open in H; [|exact Hn]. destruct H as (Hkn & _). exact (Hkn g Hk). }
  split; [|exact Hd]. destruct (s_nil x); auto.
Qed.

Lemma inv_read : forall st g ch,
  Inv st -> sfor (ss st) (gs st g) ch = true ->
  Inv (mk_state (gs st) (upd (ss st) ch (mark_read (ss st ch)))
                (note (read_viol g ch (ss st ch) (g_known (gs st g) ch)) (bad st))).
Proof.
  intros st g ch (Hb & Hs & Hg) Hsf. unfold sfor in Hsf.
  destruct (known_done _ _ _ g (Hs ch) Hsf) as (Hw & Hd).
  split; [|split]; cbn.
  - unfold read_viol. rewrite Hw, Hsf. cbn. now rewrite Hb.
  - intros s1. destruct (Nat.eq_dec s1 ch) as [->|Hne]; [|rewrite upd_other by assumption; apply Hs].
    rewrite upd_same. specialize (Hs ch). unfold sinv, sorter in *. cbn.
    destruct (s_nil (ss st ch)); [assumption|].
    destruct Hs as (H1 & H2 & H3). split; [assumption|]. split; [auto|assumption].
  - intros h. apply ginv_other with (g := S h); [lia|apply Hg|apply stable_read|].
    intros Ht. eapply sinv_ticket; eauto.
Qed.

Lemma step_noframe : forall st g ch,
  Inv st -> g_frame (gs st g) = None -> Inv (step current_progs st g ch).
Proof.
  intros st g ch HI Hfr. pose proof HI as (Hb & Hs & Hg).
  destruct (Hg g) as (Hgf & Hgk). unfold step. rewrite Hfr.
  assert (Hns : forall f0, g_frame (gs st g) = Some f0 ->
            ~ sorter_at f0 (ss st (f_seg f0)) (g_known (gs st g) (f_seg f0))) by (intros; congruence).
  destruct (g_kind (gs st g)) eqn:Hkind.
  - destruct Hgk as (_ & -> & ->). cbn. assumption.
  - (* ensureSorted *)
    cbn [lrange]. apply einv_iff in Hgk.
    pose proof (fun G' => inv_local_ensure st g lo hi G' HI Hns) as Hloc.
    destruct Hgk as [Hc Hl _|Hc Hl _|Hc Hl _ Hso|z Hc Hl Hz Hcov _|Hc Hl _ Hcov|Hc Hl _
                    |z Hc Hl Hz Hcov _|Hc Hl _ Hcov]; rewrite Hl, ?Hc; cbn.
    + apply Hloc; cbn; trivial. now apply AtSet.
    + apply Hloc; cbn; trivial. now apply AtLoop1.
    + apply Hloc; cbn; trivial. apply (InLoop1 _ _ _ _ (Z.of_nat hi + 0)); cbn; trivial; [lia|].
      intros _ s1 Hz1 Hr1. lia.
    + unfold eval_bound. cbn. destruct (Z.leb_spec (Z.of_nat lo + 0) z) as [Hle|Hgt].
      * destruct (g_sorted (gs st g)) eqn:Hso; cbn.
        -- destruct (Z.ltb_spec z 0) as [Hneg|_]; [lia|].
           apply Hloc; cbn; auto. apply (InLoop1 _ _ _ _ z); cbn; auto.
           unfold call_ok. cbn. repeat split; lia.
        -- apply Hloc; cbn; trivial. apply (InLoop1 _ _ _ _ (z - 1)); cbn; trivial; [lia|congruence].
      * apply Hloc; cbn; trivial. apply AtIf; cbn; trivial.
        intros Hso. eapply cov_weaken; [|exact (Hcov Hso)]. lia.
    + apply Hloc; cbn; trivial. destruct (g_sorted (gs st g)) eqn:Hso; cbn.
      * apply AtEnd; cbn; auto.
      * now apply AtLoop2.
    + apply Hloc; cbn; trivial. apply (InLoop2 _ _ _ _ (Z.of_nat hi + 0)); cbn; trivial; [lia|].
      intros s1 Hz1 Hr1. lia.
    + unfold eval_bound. cbn. destruct (Z.leb_spec (Z.of_nat lo + 0) z) as [Hle|Hgt].
      * destruct (Z.ltb_spec z 0) as [Hneg|_]; [lia|].
        apply Hloc; cbn; auto. apply (InLoop2 _ _ _ _ z); cbn; auto.
        unfold call_ok. cbn. repeat split; lia.
      * apply Hloc; cbn; trivial. apply AtEnd; cbn; trivial. eapply cov_weaken; [|exact Hcov]. lia.
    + destruct ((lo <=? ch) && (ch <=? hi)) eqn:Hr; [|assumption].
      apply inv_read; [assumption|]. apply andb_true_iff in Hr. destruct Hr as (H1 & H2).
      apply Nat.leb_le in H1. apply Nat.leb_le in H2. apply Hcov; lia.
  - destruct Hgk as (-> & -> & _). cbn. assumption.
  - contradiction.
Qed.

Theorem step_inv : forall st g ch, Inv st -> Inv (step current_progs st g ch).
Proof.
  intros st g ch HI. destruct (g_frame (gs st g)) as [f|] eqn:Hfr; [|now apply step_noframe].
  destruct (fstep g (ss st (f_seg f)) (g_known (gs st g) (f_seg f)) f) eqn:Hst.
  - unfold step. now rewrite Hfr, Hst.
  - now apply (step_frame_ret st g ch f b).
  - now apply (step_frame_next st g ch f x f0 k v).
Qed.

Theorem run_inv : forall sch st, Inv st -> Inv (run current_progs st sch).
Proof.
  induction sch as [|[g ch] r IH]; intros st HI; cbn; [assumption|]. apply IH. now apply step_inv.
Qed.

Theorem init_inv : forall kinds nils,
  (forall g, kind_ok current_progs (kinds g) = true) -> Inv (init_state current_progs kinds nils).
Proof.
  intros kinds nils Hok. split; [reflexivity|]. split; cbn.
  - intros s. unfold sinv, fresh_sst. cbn. destruct (nils s); [auto|].
    split; [intros g; destruct (kinds g); cbn; discriminate|]. split; [discriminate|]. left. auto 10.
  - intros g. specialize (Hok g). destruct (kinds g); unfold ginv, einv; cbn in *.
    + split; [intros f Hf; discriminate|auto].
    + split; [intros f Hf; discriminate|]. left. auto.
    + split.
      * intros f Hf. injection Hf as <-. exists P0. cbn. auto.
      * auto.
    + discriminate.
Qed.

Definition reachable (st : state) : Prop :=
  exists kinds nils sch, (forall g, kind_ok current_progs (kinds g) = true) /\
                         st = run current_progs (init_state current_progs kinds nils) sch.

Lemma reachable_inv : forall st, reachable st -> Inv st.
Proof. intros st (kinds & nils & sch & Hok & ->). apply run_inv, init_inv, Hok. Qed.

(* no step of any schedule is a write/write, write/read or unordered access *)
Theorem sort_no_violation : forall st, reachable st -> bad st = None.
Proof. intros st H. apply reachable_inv in H. apply H. Qed.

(* (a) *)
Theorem sort_write_section_exclusive : forall st s, reachable st ->
  s_inw (ss st s) <= 1 /\ s_entered (ss st s) <= 1.
Proof.
  intros st s H. apply reachable_inv in H. destruct H as (_ & Hs & _).
  destruct (sinv_counts _ _ _ (Hs s)) as (Hw & He & _). auto.
Qed.

(* (b) for ensureSorted *)
Theorem sort_ensure_sorted_sound : forall st g lo hi, reachable st -> ensure_finished st g lo hi ->
  forall s, lo <= s <= hi ->
    sorted_for st g s = true /\
    (s_nil (ss st s) = false -> s_done (ss st s) = true) /\ s_inw (ss st s) = 0.
Proof.
  intros st g lo hi H (Hk & Hf & Hl & Hc) s Hr. apply reachable_inv in H.
  destruct H as (_ & Hs & Hg). destruct (Hg g) as (_ & Hgk). rewrite Hk in Hgk.
  assert (Hcov : cov (ss st) (gs st g) lo hi (Z.of_nat lo - 1)).
  { apply einv_iff in Hgk.
    destruct Hgk as [Hx|Hx|Hx|z Hx|Hx|Hx|z _ Hx|_ _ _ Hx]; try (rewrite Hc in Hx; discriminate Hx);
      [congruence|exact Hx]. }
  assert (Hsf : sfor (ss st) (gs st g) s = true) by (apply Hcov; lia).
  split; [exact Hsf|]. destruct (known_done _ _ _ g (Hs s) Hsf). tauto.
Qed.

(* (b) for RequestSort *)
Theorem sort_request_sort_sound : forall st g s sy b, reachable st ->
  g_kind (gs st g) = KRequest s sy -> g_frame (gs st g) = None -> g_ret (gs st g) = Some b ->
  if b then sorted_for st g s = true /\ (s_nil (ss st s) = false -> s_done (ss st s) = true) /\
            s_inw (ss st s) = 0
  else sy = false.
Proof.
  intros st g s sy b H Hk Hf Hr. apply reachable_inv in H. destruct H as (_ & Hs & Hg).
  destruct (Hg g) as (_ & Hgk). rewrite Hk, Hf in Hgk. destruct Hgk as (_ & _ & H3).
  specialize (H3 b Hr). destruct b; [|assumption].
  split; [exact H3|]. destruct (known_done _ _ _ g (Hs s) H3). tauto.
Qed.

(* (c) progress: the ticket holder never blocks and closes the latch *)

Definition sorting (st : state) (h s n : nat) : Prop :=
  exists f, g_frame (gs st h) = Some f /\ f_seg f = s /\ s_nil (ss st s) = false /\
    match n with
    | 4 => f_code f = code_of P2 /\ f_var f = true /\ f_inw f = false
    | 3 => f_code f = code_of P3 /\ f_inw f = false
    | 2 => f_code f = code_of P3 /\ f_inw f = true
    | 1 => f_code f = code_of P4
    | _ => False
    end.

Lemma sorting_step : forall st h s n, sorting st h s (S n) ->
  blocked st h = false /\
  (if n =? 0 then s_latch (ss (step current_progs st h 0) s) = true
   else sorting (step current_progs st h 0) h s n).
Proof.
  intros st h s n ([s0 sy var inw code] & Hfr & Hsg & Hn & Hc). cbn in Hsg. subst s0.
  destruct n as [|[|[|[|n]]]]; cbn in Hc; try contradiction; decompose [and] Hc; subst;
    unfold blocked, step; rewrite Hfr; cbn; (split; [reflexivity|]).
  - now rewrite upd_same.
  - eexists. cbn. rewrite !upd_same. cbn. rewrite Hn. repeat split.
  - eexists. cbn. rewrite !upd_same. cbn. rewrite Hn. repeat split.
  - eexists. cbn. rewrite !upd_same. cbn. rewrite Hn. repeat split.
Qed.

Lemma sorting_run : forall n st h s, sorting st h s n -> 1 <= n ->
  s_latch (ss (run_g current_progs st h n) s) = true /\
  forall i, i < n -> blocked (run_g current_progs st h i) h = false.
Proof.
  induction n as [|n IH]; intros st h s Hso Hn; [lia|].
  destruct (sorting_step _ _ _ _ Hso) as (Hb & Hnext). cbn [run_g].
  destruct n as [|n'].
  - cbn in Hnext. cbn. split; [assumption|]. intros i Hi. assert (i = 0) by lia. subst. exact Hb.
  - cbn [Nat.eqb] in Hnext. destruct (IH _ _ _ Hnext) as (Hl & Hbl); [lia|]. split; [exact Hl|].
    intros [|i] Hi; [exact Hb|]. cbn [run_g]. apply Hbl. lia.
Qed.

(* a goroutine waiting on waitSortedCh of s: the holder of s's ticket is somebody else,
   it is at most 4 of its own steps away from the close, and none of those steps blocks *)
Theorem sort_waiter_released : forall st g s, reachable st -> waiting_on st g s ->
  exists h n, h <> g /\ s_holder (ss st s) = Some h /\ 1 <= n <= 4 /\
    s_latch (ss (run_g current_progs st h n) s) = true /\
    forall i, i < n -> blocked (run_g current_progs st h i) h = false.
Proof.
  intros st g s H (f & rest & Hfr & Hsg & Hc & Hl). apply reachable_inv in H.
  destruct H as (_ & Hs & Hg). destruct (Hg g) as (Hgf & _).
  destruct (Hgf f Hfr) as (p & Hp & Hpi).
  destruct p; try (rewrite Hc in Hp; discriminate Hp). cbn in Hpi. rewrite Hsg in Hpi.
  destruct Hpi as (Hn & Ht & _). specialize (Hs s). apply sinv_open in Hs; [|exact Hn].
  destruct Hs as (_ & _ & [|h fh _ Hh _ Hfh Hsh Hso|]); try congruence.
  assert (Hne : h <> g).
  { intros ->. rewrite Hfr in Hfh. injection Hfh as <-.
    discriminate (sorter_at_ph _ _ _ _ Hso Hp). }
  assert (Hex : exists n, 1 <= n <= 4 /\ sorting st h s n).
  { destruct Hso; [exists 4|exists 3|exists 2|exists 1]; (split; [lia|]); exists fh; repeat split; assumption. }
  destruct Hex as (n & Hn14 & Hsorting).
  destruct (sorting_run n st h s Hsorting) as (Hla & Hbl); [lia|].
  exists h, n. auto.
Qed.

(* the premises are satisfiable on a non-trivial state: two readers over two
   segments, one of them finished, the other waiting on the first one's sort *)
Definition ex_kinds (g : nat) : kind :=
  match g with 0 => KEnsure 0 1 | 1 => KEnsure 0 1 | 2 => KRequest 1 true | _ => KIdle end.

Example ex_reachable_finished :
  let st := run current_progs (init_state current_progs ex_kinds (fun _ => false))
                (repeat (0, 0) 40) in
  reachable st /\ ensure_finished st 0 0 1 /\ s_done (ss st 0) = true /\ s_done (ss st 1) = true.
Proof.
  cbn zeta. split.
  - exists ex_kinds, (fun _ => false), (repeat (0, 0) 40). split; [|reflexivity].
    intros [|[|[|g]]]; reflexivity.
  - vm_compute. repeat split.
Qed.

Example ex_reachable_waiting :
  let st := run current_progs (init_state current_progs ex_kinds (fun _ => false))
                (repeat (0, 0) 9 ++ repeat (2, 0) 5) in
  reachable st /\ waiting_on st 2 1.
Proof.
  cbn zeta. split.
  - exists ex_kinds, (fun _ => false), (repeat (0, 0) 9 ++ repeat (2, 0) 5). split; [|reflexivity].
    intros [|[|[|g]]]; reflexivity.
  - eexists. eexists. vm_compute. repeat split.
Qed.
