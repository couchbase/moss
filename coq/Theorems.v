(* Theorems.v — the property-level theorems about the collection model
   (child-free), derived from the invariants.  props/C*.v restate them with
   `exact` so that the statements cannot drift. *)
From Coq Require Import List NArith Bool Lia Arith.
From Moss Require Import Bytes BytesFacts Segment SegmentFacts Stack StackFacts
     Collection CollectionFacts Store LowerLevel StoreFacts Prefix.

Section WithMerge.
  Variable fm : bytes -> value -> bytes -> value.
  Notation sget := (sget fm).
  Notation llv := (llv fm).
  Notation run := (run fm).
  Notation ref_from := (ref_from fm).
  Notation snap_get := (snap_get fm).

  (* C01 / C08: whatever the schedule, a snapshot reads the reference. *)
  Theorem snapshot_reads_reference c l0 ls s :
    run c (init l0) ls = Some s -> closed s = false ->
    forall k, snap_get (cur_snapshot s) k = ref_from (llv l0) (batches ls) k.
  Proof. intros Hr Hc k. apply (reads_are_reference fm c l0 ls s Hr Hc k). Qed.

  (* C02: the snapshot handed out at some point is a value; whatever runs
     afterwards it still reads the content of the moment it was taken. *)
  Theorem snapshot_frozen c l0 ls1 ls2 s1 s2 :
    run c (init l0) ls1 = Some s1 -> closed s1 = false ->
    run c s1 ls2 = Some s2 ->
    forall k, snap_get (cur_snapshot s1) k = ref_from (llv l0) (batches ls1) k.
  Proof. intros H1 Hc _ k. eapply snapshot_reads_reference; eauto. Qed.

  (* C02: the cached snapshot is never stale *)
  Theorem cached_snapshot_sound c l0 ls s :
    run c (init l0) ls = Some s -> closed s = false ->
    forall k, snap_get (cur_snapshot s) k = snap_get (mk_snapshot s) k.
  Proof.
    intros Hr Hc k. destruct (reads_are_reference fm c l0 ls s Hr Hc k) as [H1 H2]. congruence.
  Qed.

  (* C10: Collection.Get agrees with Snapshot.Get *)
  Theorem collection_get_agrees c l0 ls s :
    run c (init l0) ls = Some s -> closed s = false ->
    forall k, coll_get fm s k = snap_get (cur_snapshot s) k.
  Proof.
    intros Hr Hc k. unfold coll_get. symmetry. eapply cached_snapshot_sound; eauto.
  Qed.

  (* C13 / C20: once nothing is dirty the lower level IS the reference. *)
  Theorem drained_lower_level_is_reference c l0 ls s :
    run c (init l0) ls = Some s -> closed s = false ->
    dirty_segments s = 0 ->
    forall k, llv (ll s) k = ref_from (llv l0) (batches ls) k.
  Proof.
    intros Hr Hc Hd k.
    pose proof (run_inv fm c (llv l0) [] (init l0) ls s (inv_init fm c l0) Hr) as [HI|HI];
      [congruence|].
    simpl in HI. rewrite <- (inv_view _ _ _ _ _ HI k).
    rewrite dirty_segments_length in Hd. apply length_zero_iff_nil in Hd. now rewrite Hd.
  Qed.

  (* C13: a failed LowerLevelUpdate changes nothing: the same base is offered again *)
  Theorem failed_update_keeps_base c s s1 s2 :
    step fm c s LPBegin = Some s1 -> step fm c s1 LPFail = Some s2 ->
    base s2 = base s /\ top s2 = top s /\ mid s2 = mid s /\ ll s2 = ll s /\ clean s2 = clean s
    /\ persister s2 = PIdle.
  Proof.
    unfold step. destruct (closed s) eqn:E; [discriminate|].
    destruct (persister s); try discriminate. destruct (base s) eqn:Eb; try discriminate.
    destruct (has_ll c); try discriminate. intros [= <-]. simpl. intros [= <-]. simpl.
    repeat split; auto.
  Qed.

  (* every way this development updates a lower level is legal for LPPublish *)
  Theorem store_persist_legal ch b f f' :
    store_persist fm ch b f = Some f' -> publish_ok fm b f f' = true.
  Proof. intros H. apply publish_ok_intro. intros k. eapply store_persist_view; eauto. Qed.

  Theorem map_update_legal b m :
    set_only m -> publish_ok fm b [m] [map_update fm b m] = true.
  Proof. intros H. apply publish_ok_intro. intros k. now apply map_update_view. Qed.
End WithMerge.

(* ---- close / reopen (C04) ------------------------------------------------- *)
Section Reopen.
  Variable fm : bytes -> value -> bytes -> value.
  Notation sget := (sget fm).
  Notation llv := (llv fm).
  Notation run := (run fm).
  Notation ref_from := (ref_from fm).

  (* what the store holds once collection and store are closed: the lower
     level last published, or - when a persistence round was in flight -
     that plus the base it was persisting (any legal choice of append /
     compaction) *)
  Inductive store_at_close (s : cstate) : llsnap -> Prop :=
  | SAC_published : store_at_close s (ll s)
  | SAC_inflight b ch l' :
      base s = Some b -> store_persist fm ch b (ll s) = Some l' -> store_at_close s l'.

  (* C04: whenever Close happens, the directory holds the reference content
     after some prefix of the executed batches - never a mixture. *)
  Theorem close_leaves_prefix c l0 ls s l' :
    run c (init l0) ls = Some s -> closed s = false -> store_at_close s l' ->
    exists n, n <= length (batches ls) /\
              forall k, llv l' k = ref_from (llv l0) (firstn n (batches ls)) k.
  Proof.
    intros Hr Hc Hs.
    destruct (run_grun fm c (init l0) 0 ghost0 ls s Hr) as [g Hg].
    pose proof (grun_pinv fm c l0 ls s g Hg Hc) as HP.
    destruct (p_ord _ _ _ _ _ HP) as [Hab [Hbd Hdh]].
    destruct Hs as [|b ch l' Hb Hp].
    - exists (ga g). split; [lia|]. apply (p_ll _ _ _ _ _ HP).
    - exists (gb g). split; [lia|]. intros k.
      rewrite (store_persist_view fm ch b (ll s) l' k Hp).
      pose proof (p_base _ _ _ _ _ HP k) as H. rewrite Hb in H. exact H.
  Qed.

  (* C04 / C13: at every moment the lower level holds exactly a prefix of the
     batch history. *)
  Theorem lower_level_is_prefix c l0 ls s :
    run c (init l0) ls = Some s -> closed s = false ->
    exists a, a <= length (batches ls) /\
              forall k, llv (ll s) k = ref_from (llv l0) (firstn a (batches ls)) k.
  Proof. intros Hr Hc. exact (close_leaves_prefix c l0 ls s (ll s) Hr Hc (SAC_published s)). Qed.

  (* C04: once nothing is dirty (persistence has caught up) the directory
     holds exactly the reference content of all executed batches. *)
  Theorem caught_up_close_is_complete c l0 ls s :
    run c (init l0) ls = Some s -> closed s = false -> dirty_segments s = 0 ->
    forall k, llv (ll s) k = ref_from (llv l0) (batches ls) k.
  Proof. apply drained_lower_level_is_reference. Qed.

  (* any number of close/reopen cycles: each session starts from what the
     previous one left in the directory *)
  Inductive cycles (c : cfg) : llsnap -> list (list segment) -> llsnap -> Prop :=
  | Cy_nil l : cycles c l [] l
  | Cy_cons l ls s l' n hs lf :
      run c (init l) ls = Some s -> closed s = false -> store_at_close s l' ->
      n <= length (batches ls) ->
      (forall k, llv l' k = ref_from (llv l) (firstn n (batches ls)) k) ->
      cycles c l' hs lf ->
      cycles c l (firstn n (batches ls) :: hs) lf.

  Theorem cycles_content c l0 hs lf :
    cycles c l0 hs lf -> forall k, llv lf k = ref_from (llv l0) (concat hs) k.
  Proof.
    induction 1 as [l|l ls s l' n hs lf Hr Hc Hs Hn Hl Hcy IH]; intros k; simpl.
    - reflexivity.
    - rewrite IH. unfold Collection.ref_from. rewrite fold_left_app.
      fold (ref_from (llv l) (firstn n (batches ls))).
      apply ref_from_ext. apply Hl.
  Qed.
End Reopen.
