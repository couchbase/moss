From Coq Require Import List NArith Bool Lia Arith.
From Moss Require Import ListFacts Bytes Segment Stack StackFacts Collection CollectionFacts Store StoreFacts Previous.

Section WithMerge.
  Variable fm : bytes -> value -> bytes -> value.

  Definition dflt : hfooter := {| h_segs := []; h_prev := None |}.
  Definition cur_segs (f : hfile) : llsnap :=
    match current f with Some i => h_segs (nth i f dflt) | None => [] end.

  Lemma h_append_eq f higher :
    h_append f higher =
    f ++ [{| h_segs := persist_append higher (cur_segs f); h_prev := current f |}].
  Proof. reflexivity. Qed.

  (* back links always point to strictly older footers of the same file *)
  Definition links_ok (f : hfile) : Prop :=
    forall i fi, nth_error f i = Some fi -> forall j, h_prev fi = Some j -> j < i.

  Lemma current_lt f i : current f = Some i -> i < length f.
  Proof. destruct f; simpl; [discriminate|]. intros [= <-]. lia. Qed.

  Lemma current_snoc f x : current (f ++ [x]) = Some (length f).
  Proof.
    unfold current. destruct (f ++ [x]) eqn:E; [now destruct f|].
    rewrite <- E, app_length. simpl. f_equal. lia.
  Qed.

  Lemma cur_segs_snoc f x : cur_segs (f ++ [x]) = h_segs x.
  Proof.
    unfold cur_segs. rewrite current_snoc, app_nth2 by lia. now rewrite Nat.sub_diag.
  Qed.

  Lemma links_ok_snoc f x :
    links_ok f -> (forall j, h_prev x = Some j -> j < length f) -> links_ok (f ++ [x]).
  Proof.
    intros H Hx i fi Hn j Hj. apply nth_error_snoc_inv in Hn.
    destruct Hn as [Hn|[-> ->]]; [eapply H; eauto|auto].
  Qed.

  Lemma links_ok_append f higher : links_ok f -> links_ok (h_append f higher).
  Proof.
    intros H. apply links_ok_snoc; auto. simpl. intros j Hj. now apply current_lt.
  Qed.

  Lemma links_ok_partial f sp higher : links_ok f -> links_ok (h_compact_partial fm f sp higher).
  Proof. intros H. apply links_ok_snoc; auto. simpl. discriminate. Qed.

  Lemma links_ok_full f higher : links_ok (h_compact_full fm f higher).
  Proof.
    intros i fi Hn j Hj. destruct i as [|[|i]]; simpl in Hn; try discriminate.
    injection Hn as <-. discriminate.
  Qed.

  Lemma links_ok_revert f t f' : links_ok f -> h_revert f t = Some f' -> links_ok f'.
  Proof.
    unfold h_revert. destruct (nth_error f t); [|discriminate]. intros H [= <-].
    apply links_ok_snoc; auto. simpl. intros j Hj. now apply current_lt.
  Qed.

  (* C12: after an append persist, the previous snapshot of the new current
     footer is the footer that was current, unchanged *)
  Theorem previous_of_append f higher i :
    current f = Some i ->
    h_previous (h_append f higher) (length f) = Some i /\
    nth_error (h_append f higher) i = nth_error f i.
  Proof.
    intros Hc. unfold h_previous, h_append. split.
    - now rewrite nth_error_snoc_last.
    - apply nth_error_snoc_old. now apply current_lt.
  Qed.

  (* appending never changes an older footer: what SnapshotPrevious returns
     is exactly what the store exposed after that earlier round *)
  Theorem older_footers_immutable (f : hfile) (x : hfooter) i :
    i < length f -> nth_error (f ++ [x]) i = nth_error f i.
  Proof. apply nth_error_snoc_old. Qed.

  (* compactions cut the chain *)
  Theorem previous_of_compaction_is_nil f sp higher :
    h_previous (h_compact_partial fm f sp higher) (length f) = None /\
    h_previous (h_compact_full fm f higher) 0 = None.
  Proof.
    unfold h_previous, h_compact_partial. now rewrite nth_error_snoc_last.
  Qed.

  (* the walk visits strictly decreasing indices, hence terminates; with fuel
     = the start index it is complete *)
  Lemma walk_decreasing fuel f i :
    links_ok f -> forall j, In j (h_walk fuel f i) -> j < i.
  Proof.
    intros Hl. revert i. induction fuel as [|k IH]; intros i j Hin; simpl in Hin; [destruct Hin|].
    unfold h_previous in *. destruct (nth_error f i) as [fi|] eqn:E; [|destruct Hin].
    destruct (h_prev fi) as [p|] eqn:Ep; [|destruct Hin].
    assert (p < i) by (eapply Hl; eauto).
    destruct Hin as [<-|Hin]; auto. specialize (IH p j Hin). lia.
  Qed.

  (* walks inside the old part of the file are not affected by later appends *)
  Lemma walk_snoc_old fuel f x i :
    links_ok f -> i < length f -> h_walk fuel (f ++ [x]) i = h_walk fuel f i.
  Proof.
    intros Hl. revert i. induction fuel as [|k IH]; intros i Hi; simpl; auto.
    unfold h_previous. rewrite nth_error_snoc_old by auto.
    destruct (nth_error f i) as [fi|] eqn:E; auto.
    destruct (h_prev fi) as [p|] eqn:Ep; auto.
    assert (p < i) by (eapply Hl; eauto).
    f_equal. apply IH. lia.
  Qed.

  (* C12, chain: after an append persist the walk back from the new current
     footer is the old current footer followed by the old walk *)
  Theorem walk_after_append fuel f higher i :
    links_ok f -> current f = Some i ->
    h_walk (S fuel) (h_append f higher) (length f) = i :: h_walk fuel f i.
  Proof.
    intros Hl Hc. simpl. destruct (previous_of_append f higher i Hc) as [Hp _]. rewrite Hp.
    f_equal. unfold h_append. apply walk_snoc_old; auto. now apply current_lt.
  Qed.

  (* ... a compaction (partial or full) cuts it: nothing older is reachable *)
  Theorem walk_after_compaction fuel f sp higher :
    h_walk fuel (h_compact_partial fm f sp higher) (length f) = [] /\
    h_walk fuel (h_compact_full fm f higher) 0 = [].
  Proof.
    destruct (previous_of_compaction_is_nil f sp higher) as [H1 H2].
    destruct fuel; simpl; auto. split.
    - rewrite H1. reflexivity.
    - unfold h_compact_full, h_previous in *. simpl. reflexivity.
  Qed.

  (* C12, revert: the reverted footer holds exactly the target's content, it
     is the new current footer, and the history stays walkable behind it *)
  Theorem revert_is_exact f t f' ft i :
    links_ok f -> nth_error f t = Some ft -> current f = Some i -> h_revert f t = Some f' ->
    current f' = Some (length f) /\
    (exists fr, nth_error f' (length f) = Some fr /\ h_segs fr = h_segs ft) /\
    (forall fuel, h_walk (S fuel) f' (length f) = i :: h_walk fuel f i) /\
    (forall j, j < length f -> nth_error f' j = nth_error f j).
  Proof.
    intros Hl Ht Hc. unfold h_revert. rewrite Ht. intros [= <-].
    repeat split.
    - apply current_snoc.
    - eexists. split; [apply nth_error_snoc_last|reflexivity].
    - intros fuel. simpl. unfold h_previous at 1. rewrite nth_error_snoc_last. simpl. rewrite Hc.
      f_equal. apply walk_snoc_old; auto. now apply current_lt.
    - intros j. apply nth_error_snoc_old.
  Qed.

  (* batches persisted after a revert build on the reverted content *)
  Theorem append_after_revert_builds_on_target f t f' ft higher k :
    nth_error f t = Some ft -> h_revert f t = Some f' ->
    llv fm (cur_segs (h_append f' higher)) k = sget fm higher (llv fm (h_segs ft)) k.
  Proof.
    intros Ht. unfold h_revert. rewrite Ht. intros [= <-].
    rewrite h_append_eq, !cur_segs_snoc. apply persist_append_view.
  Qed.
End WithMerge.
