(* IterBridgeFacts.v — the iterator of a collection snapshot enumerates the reference:
   the sections of every reachable state are ascending (so C09 applies), the lower level
   enters as the key/value list its own iterator yields. *)
From Coq Require Import List NArith Bool Lia Arith.
From Moss Require Import Bytes BytesFacts Segment SegmentFacts Stack StackFacts Collection CollectionFacts
     Iterator IteratorFacts IterBridge.

Section WithMerge.
  Variable fm : bytes -> value -> bytes -> value.
  Notation llv := (llv fm).
  Notation sget := (sget fm).

  Lemma live_iff_not_del ss k o :
    nonil fm -> newest ss k = Some o -> (sget ss no_below k <> None <-> o <> ODel).
  Proof.
    intros Hn H. destruct (sget_newest_some fm ss no_below k o H) as [cur ->].
    destruct o; simpl; split; intros G; try congruence; try discriminate.
  Qed.

  Lemma assoc_notin (f : bytes -> list kv) ks k :
    (forall a e, In e (f a) -> fst e = a) -> ~ In k ks -> assoc (flat_map f ks) k = None.
  Proof.
    intros Hf. induction ks as [|a r IH]; simpl; auto. intros Hn.
    assert (Ha : a <> k) by tauto. assert (Hr : ~ In k r) by tauto.
    specialize (IH Hr). revert Hf Ha IH. generalize (flat_map f r). intros rest Hf Ha IH.
    specialize (Hf a). induction (f a) as [|[k' v] l IHl]; simpl; auto.
    assert (k' = a) by (apply (Hf (k', v)); simpl; auto). subst k'.
    apply beqb_false in Ha. rewrite Ha. apply IHl. intros e He. apply Hf. simpl; auto.
  Qed.

  Lemma ll_entry_fst l a e : In e (ll_entry fm l a) -> fst e = a.
  Proof. unfold ll_entry. destruct (llv l a); simpl; [intros [<-|[]]; reflexivity|intros []]. Qed.

  Lemma assoc_ll_entries_aux l ks k :
    NoDup ks -> assoc (flat_map (ll_entry fm l) ks) k = if in_dec (list_eq_dec N.eq_dec) k ks then llv l k else None.
  Proof.
    induction ks as [|a r IH]; intros Hnd; simpl; auto.
    inversion Hnd as [|? ? Hna Hr]; subst. specialize (IH Hr).
    destruct (list_eq_dec N.eq_dec a k) as [->|Hne].
    - unfold ll_entry at 1. destruct (llv l k) as [b|] eqn:E; simpl.
      + now rewrite beqb_refl.
      + apply assoc_notin; auto. intros a e. apply ll_entry_fst.
    - assert (Hb : beqb a k = false) by now apply beqb_false.
      unfold ll_entry at 1. destruct (llv l a) as [b|]; simpl; [rewrite Hb|];
        rewrite IH; destruct (in_dec (list_eq_dec N.eq_dec) k r); auto.
  Qed.

  (* a point read of the list is a point read of the lower level *)
  Lemma assoc_ll_entries l k : assoc (ll_entries fm l) k = llv l k.
  Proof.
    unfold ll_entries. rewrite assoc_ll_entries_aux by (apply asc_NoDup, all_keys_asc).
    destruct (in_dec (list_eq_dec N.eq_dec) k (all_keys l)); auto.
    symmetry. now apply llv_not_in_keys.
  Qed.

  Lemma keys_ll_seg l ks :
    keys (ll_seg (flat_map (ll_entry fm l) ks))
    = filter (fun k => match llv l k with Some _ => true | None => false end) ks.
  Proof.
    induction ks as [|a r IH]; simpl; auto.
    unfold ll_seg, keys in *. rewrite !map_app.
    unfold ll_entry at 1. destruct (llv l a); simpl; [f_equal|]; exact IH.
  Qed.

  Lemma ll_entries_asc l : asc (keys (ll_seg (ll_entries fm l))).
  Proof. unfold ll_entries. rewrite keys_ll_seg. apply asc_filter, all_keys_asc. Qed.

  Definition secs_asc (s : cstate) : Prop :=
    all_asc (top s) /\ all_asc (olist (mid s)) /\ all_asc (olist (base s)) /\ all_asc (clean s) /\
    match cached s with Some sn => all_asc (sn_segs sn) | None => True end.

  Lemma all_asc_app a b : all_asc a -> all_asc b -> all_asc (a ++ b).
  Proof. intros; apply Forall_app; auto. Qed.

  Lemma all_asc_skipn n ss : all_asc ss -> all_asc (skipn n ss).
  Proof.
    intros H. apply Forall_forall. intros x Hx. apply In_skipn_in in Hx.
    unfold all_asc in H. rewrite Forall_forall in H. auto.
  Qed.

  Lemma secs_asc_cur s : secs_asc s -> all_asc (sn_segs (cur_snapshot s)).
  Proof.
    intros (Ht & Hm & Hb & Hc & Hs). unfold cur_snapshot. destruct (cached s); auto.
    simpl. repeat apply all_asc_app; auto.
  Qed.

  Lemma step_secs_asc c s l s' : secs_asc s -> step fm c s l = Some s' -> secs_asc s'.
  Proof.
    intros HI. pose proof (secs_asc_cur s HI) as Hcur.
    destruct HI as (Ht & Hm & Hb & Hc & Hs). unfold step.
    destruct (closed s); [discriminate|].
    destruct l as [b| |lvl| | |l'| | |].
    - destruct (uniq_keys (keys b) && negb (Nat.eqb (length b) 0)) eqn:E; [|discriminate].
      intros [= <-]. unfold secs_asc; simpl. repeat split; auto.
      constructor; auto. apply sort_seg_asc. apply uniq_keys_NoDup.
      apply andb_true_iff in E. tauto.
    - destruct (merger s); try discriminate. intros [= <-]. unfold secs_asc; simpl.
      repeat split; auto; try constructor. now apply all_asc_app.
    - destruct (merger s) as [|mbase mll|]; try discriminate.
      destruct (Nat.ltb lvl (length (olist (mid s))) || Nat.eqb (length (olist (mid s))) 0); [|discriminate].
      intros [= <-]. unfold secs_asc; simpl. repeat split; auto.
      + destruct (olist (mid s)) as [|m0 mr] eqn:Em; [constructor|].
        destruct (Nat.ltb lvl (length (m0 :: mr))); auto.
        unfold merge_stack, split_at. constructor; [apply merge_range_asc|].
        now apply all_asc_skipn.
      + destruct (olist (mid s)); [exact Hs|exact I].
    - destruct (merger s); try discriminate.
      destruct (base s) as [bb|] eqn:Eb; destruct (mid s) as [mm|] eqn:Em;
        try (intros [= <-]; unfold secs_asc; simpl; rewrite ?Eb, ?Em; simpl; repeat split; auto; fail).
      destruct (has_ll c); intros [= <-]; unfold secs_asc; simpl; rewrite ?Eb, ?Em; simpl;
        repeat split; auto; constructor.
    - destruct (persister s); try discriminate. destruct (base s) eqn:Eb; try discriminate.
      destruct (has_ll c); [|discriminate]. intros [= <-]. unfold secs_asc; simpl. rewrite <- ?Eb. repeat split; auto.
    - destruct (persister s); try discriminate. destruct (base s) as [bb|] eqn:Eb; try discriminate.
      destruct (publish_ok fm bb (ll s) l'); [|discriminate]. intros [= <-]. unfold secs_asc; simpl.
      repeat split; auto; try constructor.
      destruct (cache_persisted c && negb (existsb seg_has_merge bb)); auto. constructor.
    - destruct (persister s); try discriminate. intros [= <-]. unfold secs_asc; simpl. repeat split; auto.
    - intros [= <-]. unfold secs_asc; simpl. repeat split; auto.
    - intros [= <-]. unfold secs_asc; simpl. repeat split; constructor.
  Qed.

  Lemma run_secs_asc c ls : forall s s', secs_asc s -> run fm c s ls = Some s' -> secs_asc s'.
  Proof.
    induction ls as [|l r IH]; simpl; intros s s' HI.
    - intros [= <-]. exact HI.
    - destruct (step fm c s l) as [s1|] eqn:E; [|discriminate].
      apply IH. eapply step_secs_asc; eauto.
  Qed.

  Lemma secs_asc_init l0 : secs_asc (init l0).
  Proof. unfold secs_asc; simpl. repeat split; constructor. Qed.

  Lemma snap_cfg_ok sn start end_ tries :
    all_asc (sn_segs sn) -> cfg_ok (snap_cfg fm sn start end_ tries).
  Proof.
    intros H. unfold cfg_ok, snap_cfg, all_segs; simpl.
    apply Forall_app. split; auto. constructor; [apply ll_entries_asc|constructor].
  Qed.

  Lemma snap_cfg_full_get sn start end_ tries k :
    full_get fm (snap_cfg fm sn start end_ tries) k = snap_get fm sn k.
  Proof.
    unfold full_get, snap_cfg, snap_get; simpl. apply sget_ext. apply assoc_ll_entries.
  Qed.

  (* membership in the specification list, by value: exactly the keys of the
     range whose read is not nil, each with its read *)
  Lemma live_range_by_value cfg k v :
    nonil fm ->
    (In (k, v) (live_range fm cfg) <->
     in_range (c_start cfg) (c_end cfg) k = true /\ v = full_get fm cfg k /\ v <> None).
  Proof.
    intros Hn. rewrite live_range_spec. fold (full_get fm cfg k).
    rewrite (full_get_bridge fm cfg k). split.
    - intros (Hr & (o & Ho & Hd) & ->). repeat split; auto.
      apply (live_iff_not_del _ _ _ Hn Ho); auto.
    - intros (Hr & -> & Hv). repeat split; auto.
      destruct (newest (all_segs cfg) k) as [o|] eqn:E.
      + exists o. split; auto. apply (live_iff_not_del _ _ _ Hn E); auto.
      + exfalso. apply Hv. now rewrite sget_none.
  Qed.

  (* the key/value list standing for the lower level is what the lower level's
     own iterator enumerates (C09 applied to the store snapshot) *)
  Lemma ll_entries_is_ll_iteration l :
    nonil fm -> map (fun e => (fst e, Some (snd e))) (ll_entries fm l) = live_range fm (ll_cfg l).
  Proof.
    intros Hn.
    assert (A : forall k v, In (k, v) (map (fun e : kv => (fst e, Some (snd e))) (ll_entries fm l)) <->
                            In (k, v) (live_range fm (ll_cfg l))).
    { intros k v. rewrite (live_range_by_value (ll_cfg l) k v Hn). unfold ll_cfg, full_get; simpl.
      rewrite in_map_iff. split.
      - intros [[k' b] [E Hin]]. simpl in E. injection E as -> <-.
        unfold ll_entries in Hin. apply in_flat_map in Hin. destruct Hin as [a [Ha Hin]].
        unfold ll_entry in Hin. destruct (llv l a) as [b'|] eqn:E; [|destruct Hin].
        destruct Hin as [[= <- <-]|[]]. repeat split; try discriminate.
        + unfold in_range; simpl. destruct a; reflexivity.
        + symmetry. exact E.
      - intros (_ & -> & Hv). change (Stack.sget fm l (ll_get None) k) with (llv l k) in *.
        destruct (llv l k) as [b|] eqn:E; [|congruence]. exists (k, b). split; auto.
        unfold ll_entries. apply in_flat_map. exists k. split.
        + destruct (in_dec (list_eq_dec N.eq_dec) k (all_keys l)); auto.
          rewrite llv_not_in_keys in E; auto. discriminate.
        + unfold ll_entry. rewrite E. simpl; auto. }
    apply (asc_map_ext fst).
    - rewrite map_map. simpl. pose proof (ll_entries_asc l) as G.
      unfold keys, ll_seg in G. rewrite map_map in G. exact G.
    - apply C09_sorted.
    - intros [k v]. apply A.
  Qed.

  (* C01 / C09 / C10, iteration: on every reachable state, whatever the schedule,
     an iterator over the current snapshot (any bounds, any naive-seek budget)
     answers every program of Next / SeekTo / Current calls like the
     specification iterator over a list that is strictly ascending and holds
     exactly the keys of the range the reference maps to a value, each with
     that value: nothing missing, nothing extra, nothing stale. *)
  Theorem iteration_is_reference c l0 ls s start end_ tries :
    nonil fm -> run fm c (init l0) ls = Some s -> closed s = false ->
    let cfg := snap_cfg fm (cur_snapshot s) start end_ tries in
    (forall prog, run_model fm cfg prog = run_spec fm cfg prog) /\
    asc (map fst (live_range fm cfg)) /\
    (forall k v, In (k, v) (live_range fm cfg) <->
       in_range start end_ k = true /\ v <> None /\
       v = ref_from fm (llv l0) (batches ls) k).
  Proof.
    intros Hn Hr Hc cfg.
    assert (Hok : cfg_ok cfg).
    { apply snap_cfg_ok. apply secs_asc_cur. eapply run_secs_asc; [apply secs_asc_init|eauto]. }
    split; [|split].
    - intros prog. apply C09_program; auto.
    - apply C09_sorted.
    - intros k v. rewrite (live_range_by_value cfg k v Hn).
      unfold cfg at 3. rewrite snap_cfg_full_get.
      destruct (reads_are_reference fm c l0 ls s Hr Hc k) as [H1 _]. rewrite H1.
      unfold cfg; simpl. tauto.
  Qed.
End WithMerge.
