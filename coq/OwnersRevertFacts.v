(* OwnersRevertFacts.v -- the four ownership statements of OwnersFacts.v for the
   system EXTENDED with SnapshotPrevious (as repaired), SnapshotRevert and
   Store.OpenCollection after a Close (OwnersRevert.v): every operation
   preserves the ownership invariant; nothing live or held references a released
   object; everything reachable from an open handle is alive; once everything is
   closed every count is zero and no descriptor or mapping is left. *)
From Coq Require Import List Arith Bool Lia.
From Moss Require Import Owners OwnersFacts OwnersRevert.
Import ListNotations.

Lemma pres_settag o t : preserves (settag o t).
Proof. apply (pres_rewrite (fun ob => set_file ob t)). intros ob. repeat split. Qed.

Lemma settag_same o t st st' : settag o t st = Some st' ->
  regs st' = regs st /\ ct st' = ct st /\ leaked st' = leaked st.
Proof.
  unfold settag. destruct (nth_error (hp st) o); intros H; inversion H; subst; simpl. auto.
Qed.
Ltac by_settag fin :=
  let H := fresh in
  intros ? ? H; apply settag_same in H; destruct H as [? [? ?]]; red; fin.

Lemma sat_revert_kids R (HP : PrimOK R) cs : forall acc cont,
  (forall l, sat R (cont l)) -> sat R (revert_kids cs acc cont).
Proof.
  induction cs as [|c r IH]; intros acc cont P; simpl; [apply P|].
  repeat sat_comb HP. apply IH. exact P.
Qed.
Ltac xsat_go HP prim :=
  unfold xstep; simpl xbody; unfold op_prev2, op_revert, op_open_coll, revert_footer; unfold_ops;
  sat_go HP ltac:(first [ prim | apply (sat_revert_kids _ HP); intro ]).

(* (1) every operation of the extended system preserves the ownership invariant *)
Theorem xstep_preserves x : preserves (xstep x).
Proof.
  destruct x as [o|h fd a b c|h m|]; [exact (step_preserves o)|..]; apply sat_pres;
    xsat_go Rinv_ok ltac:(first [ inv_prim | apply pres_sat, pres_settag ]).
Qed.

Definition xrun_from_on := runs_inv_on xstep xrun_from (fun _ => eq_refl) (fun _ _ _ => eq_refl).
Definition xrun_from_ind := runs_inv xstep xrun_from (fun _ => eq_refl) (fun _ _ _ => eq_refl).

Lemma xrun_inv ops st : xrun ops = Some st -> Inv st.
Proof. exact (xrun_from_ind Inv xstep_preserves ops init st Inv_init). Qed.

Theorem x_ownership_invariant : forall ops st, xrun ops = Some st ->
  forall o, cnt_of (hp st) o = cn o (roots st) + cn o (allrefs (hp st)).
Proof. intros ops st H. exact (g_cnt _ _ (xrun_inv ops st H)). Qed.

(* no function leaves a counted reference in a local *)
Theorem x_locals_released : forall ops st, xrun ops = Some st -> hand st = [].
Proof.
  intros ops st. apply (xrun_from_ind (fun s => hand s = [])); [|reflexivity].
  intros x s s' _ H. apply (finish_inv _ s s' H).
Qed.

(* (2) no use after release *)
Theorem x_no_dangling_reference : forall ops st, xrun ops = Some st ->
  (forall o, In o (roots st) -> cnt_of (hp st) o > 0) /\
  (forall a ob r, nth_error (hp st) a = Some ob -> In r (orefs ob) ->
                  o_cnt ob > 0 /\ cnt_of (hp st) r > 0).
Proof. intros ops st H. exact (inv_no_dangling st (xrun_inv ops st H)). Qed.

Theorem x_released_objects_hold_nothing : forall ops st, xrun ops = Some st ->
  forall o ob, nth_error (hp st) o = Some ob -> o_cnt ob = 0 -> o_refs ob = [] /\ o_kids ob = [].
Proof. intros ops st H. exact (inv_dead_holds_nothing st (xrun_inv ops st H)). Qed.

(* (3) handles keep their data alive: the previous snapshot that was reverted
   to, the snapshots of the collection that was closed before the revert, the
   iterators on them - whatever the store and the new collection do since *)
Theorem x_handle_data_alive : forall ops st, xrun ops = Some st ->
  forall hd r o, In hd (handles st) -> In r (hrefs hd) -> reach (hp st) r o ->
    cnt_of (hp st) o > 0.
Proof. intros ops st H. exact (inv_handle_alive st (xrun_inv ops st H)). Qed.

(* nothing but the error return of startIterator loses a reference *)

Lemma xstep_keeps_leaked x : xno_ll_error x = true -> sat Rleak (xstep x).
Proof.
  destruct x as [o|h fd a b c|h m|]; intros N; [exact (step_keeps_leaked o N)|..];
    xsat_go Rleak_ok ltac:(first [ by_prim reflexivity | by_settag assumption ]).
Qed.

Theorem x_no_leak_without_error_return : forall ops st,
  forallb xno_ll_error ops = true -> xrun ops = Some st -> leaked st = [].
Proof.
  intros ops st F. apply (xrun_from_on xno_ll_error (fun s => leaked s = [])); auto.
  intros x s s' N L H. rewrite (xstep_keeps_leaked x N s s' H). exact L.
Qed.

Lemma xcurrent_no_ll_error x : xcurrent_code x = true -> xno_ll_error x = true.
Proof.
  destruct x as [o| | |]; simpl; auto. destruct o; simpl; auto; try discriminate.
Qed.

(* the control invariant of OwnersFacts.v is kept by the new operations *)

Ltac xfr_prim := first [ fr_prim | by_settag ltac:(split; [assumption | intros; congruence]) ].

Lemma xprev_frame h fd a b c : sat (Rfr (fun _ => false)) (xstep (XPrev h fd a b c)).
Proof. xsat_go (Rfr_ok (fun _ => false)) xfr_prim. Qed.

Lemma xrevert_frame h m : sat (Rfr (slot_eqb SFooter)) (xstep (XRevert h m)).
Proof. xsat_go (Rfr_ok (slot_eqb SFooter)) xfr_prim. Qed.

Lemma xstep_Cinv x st st' : Cinv st -> xstep x st = Some st' -> Cinv st'.
Proof.
  intros C H. destruct x as [o|h fd a b c|h m|].
  - exact (step_Cinv o st st' C H).
  - exact (Cinv_frame _ _ (xprev_frame h fd a b c st st' H) C).
  - (* a revert works on an open store, and touches its footer slot only *)
    destruct (xrevert_frame h m st st' H) as [E1 E2].
    apply finish_inv in H. destruct H as [H _]. unfold xbody, op_revert in H.
    apply guard_inv in H. destruct H as [[So _]|[_ ->]]; [|exact C].
    destruct C as [C1 _]. unfold Cinv. rewrite E1, So. split; [|discriminate].
    rewrite (none_at_ext coll_slots st st'); auto.
    intros s Hin. apply E2, coll_slot_not_footer, Hin.
  - (* OpenCollection: when there is a footer the collection is open afterwards *)
    apply finish_inv in H. destruct H as [H _]. unfold xbody, op_open_coll in H.
    apply guard_inv in H. destruct H as [[G H]|[_ ->]]; [|exact C].
    apply andb_prop in G. destruct G as [So _].
    unfold rd at 1 in H. destruct (reg SFooter st) as [f|]; simpl in H; [|inversion H; subst; exact C].
    apply bind_inv in H. destruct H as [s1 [H1 H]].
    apply bind_inv in H. destruct H as [s2 [H2 H]].
    apply bind_inv in H. destruct H as [s3 [H3 H]]. inversion H3; subst s3; clear H3.
    destruct (p_addref _ (Rfr_ok (fun _ => true)) f st s1 H1) as [A1 _].
    assert (A2 : Rfr (fun _ => true) s1 s2).
    { refine ((_ : sat _ _) s1 s2 H2). sat_go (Rfr_ok (fun _ => true)) fr_prim. }
    assert (A3 : Rfr (fun _ => true) (with_ct s2 (c_reopen (length (kids_of f s2)) (ct s2))) st').
    { refine ((_ : sat _ _) _ st' H). sat_go (Rfr_ok (fun _ => true)) xfr_prim. }
    destruct A2 as [A2 _]. destruct A3 as [A3 _].
    unfold Cinv. rewrite A3. simpl. rewrite A2, A1, So. split; discriminate.
Qed.

Lemma xrun_Cinv : forall ops st, xrun ops = Some st -> Cinv st.
Proof. intros ops st. exact (xrun_from_ind Cinv xstep_Cinv ops init st Cinv_init). Qed.

(* (4) once every handle, the collection and the store are closed, every
   count is zero: the footers written by a revert, the footers and mappings
   that SnapshotPrevious loaded, the wrapper of the collection that was opened
   after the revert - all released, every descriptor closed *)
Theorem x_all_closed_all_released : forall ops st,
  xrun ops = Some st -> all_closed st -> leaked st = [] ->
  (forall o, cnt_of (hp st) o = 0) /\ open_fds st = [] /\ mappings st = 0.
Proof.
  intros ops st H. apply closed_all_released;
    [exact (xrun_inv ops st H) | exact (xrun_Cinv ops st H) | exact (x_locals_released ops st H)].
Qed.

Theorem x_all_closed_all_released_current_code : forall ops st,
  forallb xcurrent_code ops = true -> xrun ops = Some st -> all_closed st ->
  (forall o, cnt_of (hp st) o = 0) /\ open_fds st = [] /\ mappings st = 0.
Proof.
  intros ops st F H AC. eapply x_all_closed_all_released; eauto.
  eapply x_no_leak_without_error_return; eauto.
  exact (forallb_impl _ _ ops xcurrent_no_ll_error F).
Qed.

(* what a revert touches is alive: every mapping that revertToSnapshot AddRef()s - those
   of the footer reverted to and of its child footers - has a positive count as long as
   the handle passed to SnapshotRevert is open, whatever happened to the store, the
   collection and the other handles since the handle was taken; and so has the FileRef
   that snapshotRevert borrows from it *)
Lemma reach_first_ref st x m f :
  reach (hp st) x m -> first_ref m st = Some f -> reach (hp st) x f.
Proof.
  unfold first_ref. intros R E. apply (reach_at _ _ m); auto.
  destruct (refs_at (hp st) m); inversion E; subst. left. reflexivity.
Qed.
Lemma reach_file_ref st t fr : file_ref t st = Some fr -> reach (hp st) t fr.
Proof.
  assert (R0 : reach (hp st) t t) by apply reach_here.
  unfold file_ref, refs_of. destruct (refs_at (hp st) t) as [|m0 ms] eqn:Em.
  - (* through the child footers *)
    assert (K : forall k, In k (kids_of t st) -> reach (hp st) t k).
    { intros k Hk. apply (reach_at _ _ t); auto. apply in_or_app. right. exact Hk. }
    induction (kids_of t st) as [|k r IH]; simpl; [discriminate|].
    unfold refs_of. destruct (refs_at (hp st) k) as [|m1 ms1] eqn:Ek.
    + apply IH. intros k' Hk'. apply K. right. exact Hk'.
    + apply reach_first_ref. apply (reach_at _ _ k); [apply K; left; reflexivity|].
      rewrite Ek. left. reflexivity.
  - apply reach_first_ref. apply (reach_at _ _ t); auto. rewrite Em. left. reflexivity.
Qed.

Corollary x_revert_touches_live_objects : forall ops st h t,
  xrun ops = Some st -> nth_error (handles st) h = Some (HFoot t) ->
  cnt_of (hp st) t > 0 /\
  (forall m, In m (refs_of t st) -> cnt_of (hp st) m > 0) /\
  (forall c m, In c (kids_of t st) -> In m (refs_of c st) ->
     cnt_of (hp st) c > 0 /\ cnt_of (hp st) m > 0) /\
  (forall fr, file_ref t st = Some fr -> cnt_of (hp st) fr > 0).
Proof.
  intros ops st h t H Hh.
  assert (Hin : In (HFoot t) (handles st)) by (eapply nth_error_In; eauto).
  assert (A : forall o, reach (hp st) t o -> cnt_of (hp st) o > 0).
  { intros o. apply (x_handle_data_alive ops st H (HFoot t) t o Hin). left. reflexivity. }
  assert (R0 : reach (hp st) t t) by apply reach_here.
  split; [apply A; exact R0|]. split; [|split].
  - intros m Hm. apply A, (reach_at _ _ t); auto. apply in_or_app. left. exact Hm.
  - intros c m Hc Hm.
    assert (Rc : reach (hp st) t c) by (apply (reach_at _ _ t); auto; apply in_or_app; right; exact Hc).
    split; apply A; auto. apply (reach_at _ _ c); auto. apply in_or_app. left. exact Hm.
  - intros fr Hf. apply A, reach_file_ref, Hf.
Qed.

(* the extension is conservative: a history of old operations runs as before *)
Lemma xrun_from_xops ops : forall st, xrun_from st (xops ops) = run_from st ops.
Proof.
  induction ops as [|o r IH]; intros st; simpl; auto.
  change (xstep (XOp o) st) with (step o st). destruct (step o st); auto.
Qed.
Theorem xrun_embeds : forall ops, xrun (xops ops) = run ops.
Proof. intros ops. apply xrun_from_xops. Qed.

Print Assumptions xstep_preserves.
Print Assumptions x_ownership_invariant.
Print Assumptions x_no_dangling_reference.
Print Assumptions x_handle_data_alive.
Print Assumptions x_all_closed_all_released.
Print Assumptions x_all_closed_all_released_current_code.
Print Assumptions x_revert_touches_live_objects.
Print Assumptions xrun_embeds.
