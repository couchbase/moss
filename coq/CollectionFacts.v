(* CollectionFacts.v — the master invariant of the collection model and its
   preservation by every step. *)
From Coq Require Import List NArith Bool Lia Arith.
From Moss Require Import Bytes BytesFacts Segment SegmentFacts Stack StackFacts Collection.

Section WithMerge.
  Variable fm : bytes -> value -> bytes -> value.
  Notation sget := (sget fm).
  Notation llv := (llv fm).
  Notation step := (step fm).
  Notation run := (run fm).
  Notation ref_from := (ref_from fm).
  Notation snap_get := (snap_get fm).

  Lemma value_eqb_true a b : value_eqb a b = true <-> a = b.
  Proof.
    destruct a, b; simpl; try (split; congruence).
    rewrite beqb_true. split; congruence.
  Qed.

  (* --- reference ---------------------------------------------------------- *)
  Lemma ref_from_app m0 h1 h2 : ref_from m0 (h1 ++ h2) = ref_from (ref_from m0 h1) h2.
  Proof. unfold ref_from. apply fold_left_app. Qed.

  Lemma ref_from_snoc m0 h b k :
    ref_from m0 (h ++ [b]) k =
    match find b k with Some o => apply_op fm k (ref_from m0 h k) o | None => ref_from m0 h k end.
  Proof. rewrite ref_from_app. reflexivity. Qed.

  (* the reference is the stack semantics of the raw batch list *)
  Lemma ref_from_sget m0 h k : ref_from m0 h k = sget (rev h) m0 k.
  Proof.
    revert m0. induction h as [|b h IH] using rev_ind; intros m0; [reflexivity|].
    rewrite ref_from_snoc, rev_unit. simpl. now rewrite IH.
  Qed.

  Lemma ref_from_ext m1 m2 h k : (forall k, m1 k = m2 k) -> ref_from m1 h k = ref_from m2 h k.
  Proof. intros H. rewrite !ref_from_sget. apply sget_ext, H. Qed.

  (* --- merge-freeness ------------------------------------------------------ *)
  Definition mf_stack (st : list segment) : Prop := forall s, In s st -> seg_has_merge s = false.

  Lemma seg_has_merge_false s : seg_has_merge s = false <-> forall k o, In (k, o) s -> is_merge o = false.
  Proof.
    unfold seg_has_merge. split.
    - intros H k o Hin. destruct (is_merge o) eqn:E; auto.
      assert (existsb (fun e => is_merge (snd e)) s = true); [|congruence].
      apply existsb_exists. exists (k, o); auto.
    - intros H. destruct (existsb (fun e => is_merge (snd e)) s) eqn:E; auto. apply existsb_exists in E.
      destruct E as [[k o] [Hin Hm]]. simpl in Hm. rewrite (H k o Hin) in Hm. discriminate.
  Qed.

  Lemma mf_find s k o : seg_has_merge s = false -> find s k = Some o -> is_merge o = false.
  Proof. intros H F. apply find_some_in in F. eapply seg_has_merge_false; eauto. Qed.

  Lemma mf_newest st k o : mf_stack st -> newest st k = Some o -> is_merge o = false.
  Proof.
    induction st as [|s r IH]; simpl; intros H E; [discriminate|].
    destruct (find s k) eqn:F.
    - injection E as <-. exact (mf_find s k _ (H s (or_introl eq_refl)) F).
    - apply IH; auto. intros s' Hs. apply H; simpl; auto.
  Qed.

  Lemma sort_seg_mf b : seg_has_merge b = false -> seg_has_merge (sort_seg b) = false.
  Proof.
    rewrite !seg_has_merge_false. intros H k o Hin. apply -> sort_seg_in in Hin. apply (H k o Hin).
  Qed.

  Lemma emit_all_mf tail incl upper fg ks :
    mf_stack upper -> seg_has_merge (emit_all tail incl upper fg ks) = false.
  Proof.
    intros Hm. apply seg_has_merge_false. intros k o Hin.
    rewrite emit_all_ktab in Hin. apply ktab_in in Hin. destruct Hin as (_ & Hin).
    unfold emitted in Hin. destruct (skip_del incl upper k); [discriminate|].
    rewrite emit_one_spec in Hin. destruct (newest upper k) as [o'|] eqn:En; [|discriminate].
    injection Hin as <-. pose proof (mf_newest _ _ _ Hm En) as Ho. rewrite Ho.
    now destruct (tail && _).
  Qed.

  Lemma merge_stack_mf lvl ss below : mf_stack ss -> mf_stack (merge_stack fm lvl ss below).
  Proof.
    intros H. unfold merge_stack, split_at. intros s [<-|Hin].
    - apply emit_all_mf. intros s Hs. apply H. eapply In_firstn_in; eauto.
    - apply H. eapply In_skipn_in; eauto.
  Qed.

  Lemma sget_idem_mf st f k : mf_stack st -> sget st (sget st f) k = sget st f k.
  Proof.
    induction st as [|s r IH]; simpl; intros H; auto.
    destruct (find s k) eqn:F.
    - apply apply_op_setdel, (mf_find s k o (H s (or_introl eq_refl)) F).
    - transitivity (sget r (sget r f) k).
      + apply sget_ext. simpl. now rewrite F.
      + apply IH. intros s' Hs; apply H; simpl; auto.
  Qed.

  (* --- publish_ok ---------------------------------------------------------- *)
  Lemma llv_not_in_keys l k : ~ In k (all_keys l) -> llv l k = None.
  Proof. intros H. apply (sget_none fm), newest_notin, H. Qed.

  Lemma all_keys_app a b k : In k (all_keys (a ++ b)) <-> In k (all_keys a) \/ In k (all_keys b).
  Proof.
    rewrite !all_keys_in. split.
    - intros [s [H1 H2]]. apply in_app_or in H1. destruct H1; [left|right]; eauto.
    - intros [[s [H1 H2]]|[s [H1 H2]]]; exists s; split; auto; apply in_or_app; auto.
  Qed.

  Lemma publish_ok_spec bs l l' :
    publish_ok fm bs l l' = true -> forall k, llv l' k = sget bs (llv l) k.
  Proof.
    unfold publish_ok. rewrite forallb_forall. intros H k.
    destruct (in_dec (list_eq_dec N.eq_dec) k (all_keys (l' ++ bs ++ l))) as [Hin|Hn].
    - apply value_eqb_true. apply H; auto.
    - rewrite !all_keys_app in Hn. rewrite (sget_none fm bs) by (apply newest_notin; tauto).
      now rewrite !llv_not_in_keys by tauto.
  Qed.

  Lemma publish_ok_intro bs l l' :
    (forall k, llv l' k = sget bs (llv l) k) -> publish_ok fm bs l l' = true.
  Proof. intros H. apply forallb_forall. intros k _. apply value_eqb_true, H. Qed.

  (* --- the invariant -------------------------------------------------------- *)
  Definition dirty (s : cstate) : list segment := top s ++ olist (mid s) ++ olist (base s).

  Record InvOpen (c : cfg) (m0 : bytes -> value) (h : list segment) (s : cstate) : Prop := {
    inv_view : forall k, sget (dirty s) (llv (ll s)) k = ref_from m0 h k;
    inv_clean : forall k, sget (clean s) (llv (ll s)) k = llv (ll s) k;
    inv_mcap : match merger s with
               | MIngested mb ml =>
                   forall k, sget (olist mb) (llv ml) k = sget (olist (base s)) (llv (ll s)) k
               | _ => True
               end;
    inv_cached : match cached s with
                 | Some sn => forall k, snap_get sn k = ref_from m0 h k
                 | None => True
                 end
  }.

  Definition Inv c m0 h s : Prop := closed s = true \/ InvOpen c m0 h s.

  Lemma sget_dirty s b k :
    sget (dirty s) b k = sget (top s) (sget (olist (mid s)) (sget (olist (base s)) b)) k.
  Proof. unfold dirty. rewrite sget_app. apply sget_ext, sget_app. Qed.

  Lemma dirty_segments_length s : dirty_segments s = length (dirty s).
  Proof. unfold dirty_segments, dirty. rewrite !app_length. lia. Qed.

  Lemma step_closed c s lb : closed s = true -> step c s lb = None.
  Proof. unfold Collection.step. now intros ->. Qed.

  Lemma inv_init c l : Inv c (llv l) [] (init l).
  Proof.
    right. constructor; simpl; auto.
  Qed.

  Lemma mk_snapshot_view c m0 h s :
    InvOpen c m0 h s -> forall k, snap_get (mk_snapshot s) k = ref_from m0 h k.
  Proof.
    intros [Hv Hc _ _] k. unfold Collection.snap_get, mk_snapshot; simpl.
    rewrite <- (Hv k). unfold dirty.
    rewrite !app_assoc. rewrite sget_app. rewrite <- !app_assoc.
    apply sget_ext. apply Hc.
  Qed.

  Lemma inv_same c m0 h s s' :
    top s' = top s -> mid s' = mid s -> base s' = base s -> clean s' = clean s ->
    ll s' = ll s -> cached s' = cached s ->
    (merger s' = merger s \/ merger s' = MIdle \/ merger s' = MSwapped) ->
    InvOpen c m0 h s -> InvOpen c m0 h s'.
  Proof.
    intros E1 E2 E3 E4 E5 E6 E7 [Hv Hc Hm Hca].
    constructor; unfold dirty in *; rewrite ?E1, ?E2, ?E3, ?E4, ?E5, ?E6; auto.
    destruct E7 as [->|[->| ->]]; auto.
  Qed.

  Definition label_batches (lb : label) : list segment :=
    match lb with LBatch b => [b] | _ => [] end.

  Lemma mf_stack_existsb b : existsb seg_has_merge b = false -> mf_stack b.
  Proof.
    intros H sg Hin. destruct (seg_has_merge sg) eqn:E; auto.
    assert (existsb seg_has_merge b = true); [|congruence].
    apply existsb_exists. eauto.
  Qed.

  Theorem step_inv c m0 h s lb s' :
    Inv c m0 h s -> step c s lb = Some s' -> Inv c m0 (h ++ label_batches lb) s'.
  Proof.
    intros HI Hs. destruct (closed s) eqn:Ecl; [now rewrite step_closed in Hs|].
    destruct HI as [Hcl|HI]; [congruence|].
    unfold Collection.step in Hs. rewrite Ecl in Hs. pose proof HI as [Hv Hc Hm Hca].
    destruct lb; simpl label_batches; rewrite ?app_nil_r.
    - (* LBatch *)
      destruct (uniq_keys (keys b) && negb (Nat.eqb (length b) 0)) eqn:G; [|discriminate].
      injection Hs as <-. apply andb_true_iff in G. destruct G as [Gu _].
      apply uniq_keys_NoDup in Gu.
      right. constructor; simpl; auto.
      intros k. unfold dirty; simpl. rewrite ref_from_snoc.
      rewrite find_sort_seg by auto. fold (dirty s). rewrite (Hv k). reflexivity.
    - (* LIngest *)
      destruct (merger s); try discriminate. injection Hs as <-.
      right. constructor; simpl; auto.
      intros k. unfold dirty; simpl. rewrite <- (Hv k). unfold dirty.
      now rewrite <- app_assoc.
    - (* LSwap *)
      destruct (merger s) as [|mb ml|] eqn:Em; try discriminate.
      destruct (_ || _); [|discriminate]. injection Hs as <-.
      right. constructor; simpl; auto.
      + intros k. rewrite <- (Hv k), !sget_dirty. simpl. apply sget_ext. now apply swap_mid_view.
      + destruct (olist (mid s)); [exact Hca|exact I].
    - (* LHandover *)
      destruct (merger s) eqn:Em; try discriminate.
      destruct (base s) eqn:Eb, (mid s) eqn:Emid;
        try (injection Hs as <-; right; apply (inv_same c m0 h s); simpl; auto; fail).
      destruct (has_ll c); injection Hs as <-; right; [|apply (inv_same c m0 h s); simpl; auto].
      constructor; simpl; auto.
      intros k. now rewrite <- (Hv k), !sget_dirty, Eb, Emid.
    - (* LPBegin *)
      destruct (persister s); try discriminate.
      destruct (base s) eqn:Eb; try discriminate.
      destruct (has_ll c); try discriminate. injection Hs as <-.
      right. apply (inv_same c m0 h s); simpl; auto.
    - (* LPPublish *)
      destruct (persister s); try discriminate.
      destruct (base s) as [b|] eqn:Eb; try discriminate.
      destruct (publish_ok fm b (ll s) ll') eqn:G; [|discriminate].
      injection Hs as <-. pose proof (publish_ok_spec _ _ _ G) as Hp.
      right. constructor; simpl; auto.
      + intros k. rewrite <- (Hv k), !sget_dirty, Eb. simpl. do 2 apply sget_ext. apply Hp.
      + intros k. destruct (cache_persisted c && negb (existsb seg_has_merge b)) eqn:Ecp; simpl; auto.
        apply andb_true_iff in Ecp. destruct Ecp as [_ Ecp]. apply negb_true_iff in Ecp.
        rewrite (sget_ext fm b (llv ll') (sget b (llv (ll s))) k (Hp k)).
        rewrite Hp. apply sget_idem_mf. apply mf_stack_existsb; auto.
      + destruct (merger s) as [|mb ml|]; auto.
        intros k. rewrite (Hm k). simpl. symmetry; apply Hp.
    - (* LPFail *)
      destruct (persister s); try discriminate. injection Hs as <-.
      right. apply (inv_same c m0 h s); simpl; auto.
    - (* LSnap *)
      injection Hs as <-. right. constructor; unfold dirty; simpl; auto.
      unfold cur_snapshot. destruct (cached s) eqn:Ec.
      + exact Hca.
      + apply (mk_snapshot_view c m0 h s HI).
    - (* LClose *)
      injection Hs as <-. left. reflexivity.
  Qed.

  Lemma batches_cons lb ls : batches (lb :: ls) = label_batches lb ++ batches ls.
  Proof. destruct lb; reflexivity. Qed.

  Theorem run_inv c m0 h s ls s' :
    Inv c m0 h s -> run c s ls = Some s' -> Inv c m0 (h ++ batches ls) s'.
  Proof.
    revert h s. induction ls as [|lb ls IH]; intros h s HI Hr; simpl in Hr.
    - injection Hr as <-. simpl. now rewrite app_nil_r.
    - destruct (step c s lb) as [s1|] eqn:Es; [|discriminate].
      rewrite batches_cons, app_assoc. apply IH with s1; auto.
      eapply step_inv; eauto.
  Qed.

  (* --- what the invariant gives the reader --------------------------------- *)

  Theorem reads_are_reference c l ls s :
    run c (init l) ls = Some s -> closed s = false ->
    forall k,
      snap_get (cur_snapshot s) k = ref_from (llv l) (batches ls) k /\
      snap_get (mk_snapshot s) k = ref_from (llv l) (batches ls) k.
  Proof.
    intros Hr Hcl k.
    pose proof (run_inv c (llv l) [] (init l) ls s (inv_init c l) Hr) as HI.
    simpl in HI. destruct HI as [HI|HI]; [congruence|].
    split.
    - unfold cur_snapshot. destruct (cached s) eqn:Ec.
      + pose proof (inv_cached _ _ _ _ HI) as H. rewrite Ec in H. apply H.
      + eapply mk_snapshot_view; eauto.
    - eapply mk_snapshot_view; eauto.
  Qed.
End WithMerge.
