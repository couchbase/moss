(* TreeCyclesFacts.v — "clean shutdown and reopen returns what was written",
   with child collections, for an arbitrary merge operator.  What restore
   builds from a footer tree with distinct child names satisfies the invariant
   of TreeInvFacts, against the reference tree cut down to the children that
   have a footer (rt_restrict); that tree is the given one up to the existence
   of empty child collections (rt_sub), and the relation survives every batch.
   From there: the theorems of TreeInvFacts from any store, what Close leaves
   in the store, and any number of run / close / reopen cycles.  The Close and
   Reopen steps of the trace runner (TreeRun.trstep) are shown equal to cclose
   and cinit_from; two counterexamples show what cannot be dropped
   (close_choice_ok; "up to empty child collections"). *)
From Coq Require Import List NArith Bool Lia Arith.
From Moss Require Import Bytes BytesFacts Segment SegmentFacts Stack StackFacts
     Collection CollectionFacts Store StoreFacts Tree TreeColl TreeFacts TreeInv TreeInvFacts
     TreeCycles.
From Moss Require FlatRun TreeRun.
Import ListNotations.

Section RrGo.
  Variable rec : rtree -> fnode -> rtree.
  Variable fk : list (cname * fnode).
  Fixpoint rr_go (l : list (cname * rtree)) : list (cname * rtree) :=
    match l with
    | [] => []
    | (n, cr) :: q =>
        match assoc n fk with
        | Some cf => (n, rec cr cf) :: rr_go q
        | None => rr_go q
        end
    end.

  Lemma rr_go_assoc l n :
    assoc n (rr_go l) =
    match assoc n l, assoc n fk with
    | Some cr, Some cf => Some (rec cr cf)
    | _, _ => None
    end.
  Proof.
    induction l as [|[n' cr] q IH]; [reflexivity|].
    cbn [rr_go]. destruct (assoc n' fk) as [cf|] eqn:Ef; cbn [assoc].
    - destruct (beqb n' n) eqn:E; auto.
      apply beqb_true in E. subst n'. now rewrite Ef.
    - destruct (beqb n' n) eqn:E; auto.
      apply beqb_true in E. subst n'. rewrite IH, Ef. destruct (assoc n q); reflexivity.
  Qed.
End RrGo.

Lemma rt_restrict_unfold h kids f :
  rt_restrict (RT h kids) f = RT h (rr_go rt_restrict (fn_kids f) kids).
Proof. reflexivity. Qed.

Lemma rt_restrict_hist r f : rt_hist (rt_restrict r f) = rt_hist r.
Proof. destruct r; reflexivity. Qed.

Lemma rt_restrict_kid r f n :
  assoc n (rt_kids (rt_restrict r f)) =
  match assoc n (rt_kids r), assoc n (fn_kids f) with
  | Some cr, Some cf => Some (rt_restrict cr cf)
  | _, _ => None
  end.
Proof. destruct r as [h kids]. rewrite rt_restrict_unfold. cbn [rt_kids]. apply rr_go_assoc. Qed.

Lemma rt_run_snoc r0 bs b : rt_run r0 (bs ++ [b]) = rt_apply (rt_run r0 bs) b.
Proof. now rewrite rt_run_app. Qed.

Lemma rt_run_ref bs : rt_run (RT [] []) bs = ref_tree bs.
Proof. reflexivity. Qed.

Lemma Forall_firstn' {A} (P : A -> Prop) n (l : list A) : Forall P l -> Forall P (firstn n l).
Proof.
  intros H. rewrite <- (firstn_skipn n l) in H. apply Forall_app in H. tauto.
Qed.

Section RtFacts.
  Variable fm : bytes -> value -> bytes -> value.
  Notation rt_get := (rt_get fm).
  Notation rt_sub := (rt_sub fm).
  Notation rt_empty := (rt_empty fm).

  Lemma rt_empty_sub c : rt_empty c -> rt_sub (RT [] []) c.
  Proof.
    intros H. inversion H as [r0 Hg Hk]; subst. constructor.
    - intros k. rewrite Hg. reflexivity.
    - intros n c' E. discriminate.
    - intros n c' c0 E. discriminate.
    - intros n c0 _ E. eauto.
  Qed.

  Lemma rt_sub_leaf : rt_sub (RT [] []) (RT [] []).
  Proof. constructor; try (intros; discriminate). reflexivity. Qed.

  Lemma rt_sub_empty c' c : rt_sub c' c -> rt_empty c' -> rt_empty c.
  Proof.
    induction 1 as [r' r Hg H2 H3 IH H4]. intros He.
    inversion He as [r0 Hg' Hk']; subst. constructor.
    - intros k. rewrite <- Hg. apply Hg'.
    - intros n cr Er. destruct (assoc n (rt_kids r')) as [c'|] eqn:E'.
      + apply (IH n c' cr E' Er). eauto.
      + eauto.
  Qed.

  (* applying a batch to both sides keeps the relation: a child the smaller
     tree lacks is created afresh there, and reads as the batch applied to the
     empty child of the bigger tree *)
  Lemma rt_sub_apply b : forall r' r,
      tb_distinct b = true -> rt_sub r' r -> rt_sub (rt_apply r' b) (rt_apply r b).
  Proof.
    induction b as [ops bkids IH] using tbatch_ind'. intros r' r Hd Hs.
    destruct (tb_distinct_inv _ _ Hd) as [Hnd Hkd].
    inversion Hs as [x y Hg H2 H3 H4]; subst.
    rewrite !rt_apply_unfold.
    pose proof (ra_go_spec rt_apply bkids Hnd (rt_kids r')) as S'.
    pose proof (ra_go_spec rt_apply bkids Hnd (rt_kids r)) as S.
    assert (Hcur : forall n,
               rt_sub (match assoc n (rt_kids r') with Some x => x | None => RT [] [] end)
                      (match assoc n (rt_kids r) with Some x => x | None => RT [] [] end)).
    { intros n. destruct (assoc n (rt_kids r')) as [c'|] eqn:E', (assoc n (rt_kids r)) as [c|] eqn:E.
      - eauto.
      - exfalso. apply (H2 n c' E'). exact E.
      - apply rt_empty_sub. eauto.
      - apply rt_sub_leaf. }
    constructor; cbn [rt_kids].
    - intros k. rewrite !rt_get_snoc. now rewrite Hg.
    - intros n c' E'. specialize (S' n). specialize (S n).
      destruct (assoc n bkids) as [[cb|]|]; try congruence.
      rewrite S' in E'. rewrite S. eauto.
    - intros n c' c E' E. specialize (S' n). specialize (S n).
      destruct (assoc n bkids) as [[cb|]|] eqn:Eb.
      + rewrite S' in E'. rewrite S in E. injection E' as <-. injection E as <-.
        apply (IH n cb); [apply assoc_some_in; exact Eb| |apply Hcur].
        apply (Hkd n cb). apply assoc_some_in; exact Eb.
      + congruence.
      + rewrite S' in E'. rewrite S in E. eauto.
    - intros n c E' E. specialize (S' n). specialize (S n).
      destruct (assoc n bkids) as [[cb|]|] eqn:Eb.
      + congruence.
      + congruence.
      + rewrite S' in E'. rewrite S in E. eauto.
  Qed.

  Lemma rt_sub_run bs : forall r' r,
      Forall (fun b => tb_good b = true) bs -> rt_sub r' r -> rt_sub (rt_run r' bs) (rt_run r bs).
  Proof.
    induction bs as [|b bs IH]; intros r' r Hg Hs; [exact Hs|].
    inversion Hg; subst. cbn [rt_run fold_left]. apply IH; auto. apply rt_sub_apply; auto.
  Qed.

  (* a footer that reads as the smaller tree reads as the bigger one *)
  Lemma fn_reads_mod_sub f r' :
    fn_reads_mod fm f r' -> forall r, rt_sub r' r -> fn_reads_mod fm f r.
  Proof.
    induction 1 as [f r' Hg F2 F3 IH F4]. intros r Hs.
    inversion Hs as [x y Hg' H2 H3 H4]; subst.
    constructor.
    - intros k. rewrite Hg. apply Hg'.
    - intros n cf E. destruct (assoc n (rt_kids r')) as [c'|] eqn:E'.
      + eauto.
      + exfalso. apply (F2 n cf E). exact E'.
    - intros n cf cr E Er. destruct (assoc n (rt_kids r')) as [c'|] eqn:E'.
      + apply (IH n cf c' E E'). eauto.
      + exfalso. apply (F2 n cf E). exact E'.
    - intros n cr E Er. destruct (assoc n (rt_kids r')) as [c'|] eqn:E'.
      + apply (rt_sub_empty c' cr); eauto.
      + eauto.
  Qed.

  (* a stack that reads as the smaller tree reads as the bigger one, up to
     the existence of empty children *)
  Lemma reads_as_sub s r' :
    reads_as fm s r' -> forall r, rt_sub r' r -> reads_mod fm s r.
  Proof.
    induction 1 as [s r' Hg Hn Hk IH]. intros r Hs.
    inversion Hs as [x y Hg' H2 H3 H4]; subst.
    assert (Hn' : forall n, assoc n (ss_kids s) = None <-> assoc n (rt_kids r') = None)
      by (intros n; apply names_iff_assoc, Hn).
    constructor.
    - intros k. rewrite Hg. apply Hg'.
    - intros n cs E. destruct (assoc n (rt_kids r')) as [c'|] eqn:E'.
      + eauto.
      + apply Hn' in E'. congruence.
    - intros n cs cr E Er. destruct (assoc n (rt_kids r')) as [c'|] eqn:E'.
      + apply (IH n cs c' E E'). eauto.
      + apply Hn' in E'. congruence.
    - intros n cr E Er. apply Hn' in E. eauto.
  Qed.

  Lemma reads_as_mod s r : reads_as fm s r -> reads_mod fm s r.
  Proof.
    induction 1 as [s r Hg Hn Hk IH].
    assert (Hn' : forall n, assoc n (ss_kids s) = None <-> assoc n (rt_kids r) = None)
      by (intros n; apply names_iff_assoc, Hn).
    constructor; auto.
    - intros n cs E Er. apply Hn' in Er. congruence.
    - intros n cr E Er. apply Hn' in E. congruence.
  Qed.

  (* cutting the reference down to the children that have a footer drops
     empty children only, and makes the child names agree exactly *)
  Lemma rt_restrict_sub f r : fn_reads_mod fm f r -> rt_sub (rt_restrict r f) r.
  Proof.
    induction 1 as [f r Hg F2 F3 IH F4].
    constructor.
    - intros k. unfold TreeColl.rt_get. now rewrite rt_restrict_hist.
    - intros n c' E. rewrite rt_restrict_kid in E.
      destruct (assoc n (rt_kids r)); [discriminate|discriminate].
    - intros n c' c E Er. rewrite rt_restrict_kid, Er in E.
      destruct (assoc n (fn_kids f)) as [cf|] eqn:Ef; [|discriminate].
      injection E as <-. eauto.
    - intros n c E Er. rewrite rt_restrict_kid, Er in E.
      destruct (assoc n (fn_kids f)) as [cf|] eqn:Ef; [discriminate|]. eauto.
  Qed.

  Lemma rt_restrict_exact f r : fn_reads_mod fm f r -> fn_reads_exact fm f (rt_restrict r f).
  Proof.
    induction 1 as [f r Hg F2 F3 IH F4].
    constructor.
    - intros k. rewrite Hg. unfold TreeColl.rt_get. now rewrite rt_restrict_hist.
    - intros n. rewrite rt_restrict_kid. split.
      + intros ->. destruct (assoc n (rt_kids r)); reflexivity.
      + intros E. destruct (assoc n (fn_kids f)) as [cf|] eqn:Ef; [|reflexivity].
        exfalso. destruct (assoc n (rt_kids r)) as [cr|] eqn:Er; [discriminate|].
        apply (F2 n cf Ef). exact Er.
    - intros n cf cr Ef E. rewrite rt_restrict_kid, Ef in E.
      destruct (assoc n (rt_kids r)) as [cr0|] eqn:Er; [|discriminate].
      injection E as <-. eauto.
  Qed.

  Lemma fn_reads_exact_mod f r : fn_reads_exact fm f r -> fn_reads_mod fm f r.
  Proof.
    induction 1 as [f r Hg Hn Hk IH]. constructor; auto.
    - intros n cf E Er. apply Hn in Er. congruence.
    - intros n cr E Er. apply Hn in E. congruence.
  Qed.
End RtFacts.

Section RestoreInv.
  Variable fm : bytes -> value -> bytes -> value.

  (* the restored collection over the renumbered footer is a live node tree
     that reads as any reference tree the footer reads as exactly *)
  Lemma NodeInv_restore f : forall i r,
      fn_wf f -> fn_reads_exact fm f r ->
      NodeInv fm true true None (fst (restore i f)) None None None None
              (Some (snd (restore i f))) r.
  Proof.
    induction f as [a j kids IH] using fnode_ind'. intros i r Hw He.
    inversion Hw as [f0 Hnd Hwk]; subst. inversion He as [f0 r0 Hg Hn Hk]; subst.
    destruct (restore_spec i (FN a j kids)) as (hi & ck & fk & -> & Hh & Hc & Hf & Hs).
    cbn [fn_kids fn_segs fst snd] in *.
    constructor.
    - constructor; cbn [cn_kids cn_highest osegs app].
      + intros k. cbn [Stack.sget Tree.fn_get fn_segs]. apply Hg.
      + intros k. reflexivity.
      + intros K ms HK. discriminate.
      + intros _ b Hb. discriminate.
      + now rewrite Hc.
      + intros n. rewrite <- Hn. specialize (Hs n).
        destruct (assoc n kids) as [cf|].
        * destruct Hs as (i0 & _ & -> & _). split; discriminate.
        * destruct Hs as [-> _]. tauto.
      + intros n cm Ea. specialize (Hs n). destruct (assoc n kids) as [cf|].
        * destruct Hs as (i0 & Hi & E1 & _). rewrite E1 in Ea. injection Ea as <-.
          destruct (restore_keeps_content i0 cf) as (_ & _ & -> & _). lia.
        * destruct Hs as [E1 _]. congruence.
      + intros n i0 Hi. repeat split; auto. cbn [fsel fn_kids].
        specialize (Hs n). destruct (assoc n kids) as [cf|].
        * destruct Hs as (i1 & Hi1 & _ & ->).
          destruct (restore_keeps_content i1 cf) as (_ & _ & _ & ->).
          assert (i1 <> i0) by lia. apply N.eqb_neq in H. now rewrite H.
        * destruct Hs as [_ ->]. reflexivity.
      + intros HB. exfalso. now apply HB.
      + intros HM. exfalso. now apply HM.
      + discriminate.
      + discriminate.
    - intros n cm cr Ea Er. cbn [cn_kids] in Ea. cbn [option_map sel].
      specialize (Hs n). destruct (assoc n kids) as [cf|] eqn:Ek.
      + destruct Hs as (i0 & Hi & E1 & E2). rewrite E1 in Ea. injection Ea as <-.
        destruct (restore_keeps_content i0 cf) as (_ & _ & Hi1 & Hi2). rewrite Hi1.
        cbn [fsel fn_kids]. rewrite E2, Hi2, N.eqb_refl.
        apply (IH n cf); eauto. apply assoc_some_in; exact Ek.
      + destruct Hs as [E1 _]. congruence.
  Qed.
End RestoreInv.

Lemma FLive_restore f : forall i, fn_wf f -> FLive (fst (restore i f)) (snd (restore i f)).
Proof.
  induction f as [a j kids IH] using fnode_ind'. intros i Hw.
  inversion Hw as [f0 Hnd Hwk]; subst.
  destruct (restore_spec i (FN a j kids)) as (hi & ck & fk & -> & Hh & Hc & Hf & Hs).
  cbn [fn_kids fst snd] in *.
  assert (Hex : forall n y, assoc n fk = Some y ->
                 exists cf i0, assoc n kids = Some cf /\ assoc n ck = Some (fst (restore i0 cf)) /\
                               y = snd (restore i0 cf)).
  { intros n y E. specialize (Hs n). destruct (assoc n kids) as [cf|] eqn:Ek.
    - destruct Hs as (i0 & _ & E1 & E2). exists cf, i0. split; auto. split; auto. congruence.
    - destruct Hs as [_ E2]. congruence. }
  constructor; cbn [fn_kids cn_kids].
  - now rewrite Hf.
  - intros n y E. destruct (Hex n y E) as (cf & i0 & _ & E1 & _). congruence.
  - intros n y cm E Ea. destruct (Hex n y E) as (cf & i0 & _ & E1 & ->).
    rewrite E1 in Ea. injection Ea as <-.
    destruct (restore_keeps_content i0 cf) as (_ & _ & -> & ->). reflexivity.
  - intros n y cm E Ea. destruct (Hex n y E) as (cf & i0 & Ek & E1 & ->).
    rewrite E1 in Ea. injection Ea as <-.
    apply (IH n cf (assoc_some_in _ _ Ek)). eauto.
Qed.

Section RestoreReads.
  Variable fm : bytes -> value -> bytes -> value.
  Lemma restore_reads_mod f : forall i r,
      fn_reads_mod fm f r -> fn_reads_mod fm (snd (restore i f)) r.
  Proof.
    induction f as [a j kids IH] using fnode_ind'. intros i r Hr.
    inversion Hr as [f0 r0 Hg F2 F3 F4]; subst.
    destruct (restore_spec i (FN a j kids)) as (hi & ck & fk & -> & Hh & Hc & Hf & Hs).
    cbn [fn_kids fn_segs fst snd] in *.
    constructor; cbn [fn_kids fn_segs]; auto.
    - intros n y E. specialize (Hs n). destruct (assoc n kids) as [cf|] eqn:Ek.
      + eauto.
      + destruct Hs as [_ E2]. congruence.
    - intros n y cr E Er. specialize (Hs n). destruct (assoc n kids) as [cf|] eqn:Ek.
      + destruct Hs as (i0 & _ & _ & E2). rewrite E2 in E. injection E as <-.
        apply (IH n cf); eauto. apply assoc_some_in; exact Ek.
      + destruct Hs as [_ E2]. congruence.
    - intros n cr E Er. specialize (Hs n). destruct (assoc n kids) as [cf|] eqn:Ek.
      + destruct Hs as (i0 & _ & _ & E2). congruence.
      + eauto.
  Qed.
End RestoreReads.

Definition cycle_batches (cy : list cycle) : list (list tbatch) :=
  map (fun lc : cycle => cbatches (fst lc)) cy.

Definition cycles_good (cy : list cycle) : Prop :=
  Forall (fun lc : cycle => Forall (fun b => tb_good b = true) (cbatches (fst lc))) cy.

Section FromStore.
  Variable fm : bytes -> value -> bytes -> value.
  Notation good := (fun b => tb_good b = true).

  Lemma cinv_init_from c f r :
    fn_wf f -> fn_reads_exact fm f r -> CInv fm c true r [] (cinit_from c f) 0 0.
  Proof.
    intros Hw He. pose proof (NodeInv_restore fm f 0 r Hw He) as HN.
    pose proof (FLive_restore f 0 Hw) as HL. split.
    - constructor; cbn; auto; try discriminate. apply (FLive_wf HL).
    - exists 0, 0, 0, (fst (restore 0 f)), (fst (restore 0 f)), (fst (restore 0 f)). cbn.
      pose proof (weaken_inv HN). splits; auto.
  Qed.

  Lemma crun_from c f r0 ls cs :
    fn_wf f -> fn_reads_mod fm f r0 ->
    Forall good (cbatches ls) ->
    crun fm c (cinit_from c f) ls = Some cs ->
    CInv fm c true (rt_restrict r0 f) (cbatches ls) cs 0 0.
  Proof.
    intros Hw Hr Hg Hrun.
    apply (crun_inv ls (cinv_init_from c f _ Hw (rt_restrict_exact fm f r0 Hr)) Hg Hrun).
  Qed.

  Lemma fn_reads_mod_unrestrict f r0 x bs :
    fn_reads_mod fm f r0 -> Forall good bs ->
    fn_reads_mod fm x (rt_run (rt_restrict r0 f) bs) -> fn_reads_mod fm x (rt_run r0 bs).
  Proof.
    intros Hr Hg Hx. eapply fn_reads_mod_sub; [exact Hx|].
    apply rt_sub_run; [exact Hg|now apply rt_restrict_sub].
  Qed.

  (* (1) START FROM ANY STORE.  If the footer tree f has distinct child names
     at every node and reads as the reference tree r0 up to the existence of
     empty child collections, then after any run of the system opened on f
     the current snapshot reads EXACTLY as the reference tree continued from
     r0 cut down to the children that have a footer. *)
  Theorem tree_snapshot_reads_reference_from c f r0 ls cs :
    fn_wf f -> fn_reads_mod fm f r0 ->
    Forall good (cbatches ls) ->
    crun fm c (cinit_from c f) ls = Some cs ->
    reads_as fm (t_cur_snapshot (c_t cs)) (rt_run (rt_restrict r0 f) (cbatches ls)).
  Proof.
    intros Hw Hr Hg Hrun. destruct (crun_from c f r0 ls cs Hw Hr Hg Hrun) as [HI _].
    exact (sinv_cur_snapshot HI).
  Qed.

  Theorem tree_fresh_snapshot_reads_reference_from c f r0 ls cs :
    fn_wf f -> fn_reads_mod fm f r0 ->
    Forall good (cbatches ls) ->
    crun fm c (cinit_from c f) ls = Some cs ->
    reads_as fm (t_mk_snapshot (c_t cs)) (rt_run (rt_restrict r0 f) (cbatches ls)).
  Proof.
    intros Hw Hr Hg Hrun. destruct (crun_from c f r0 ls cs Hw Hr Hg Hrun) as [HI _].
    exact (sinv_snapshot HI).
  Qed.

  (* what the cut-down tree is: r0 without some child collections that hold no
     key at any depth (those without a footer), with the footer's child names *)
  Theorem rt_restrict_spec f r0 :
    fn_reads_mod fm f r0 ->
    rt_sub fm (rt_restrict r0 f) r0 /\ fn_reads_exact fm f (rt_restrict r0 f).
  Proof. intros H. split; [now apply rt_restrict_sub|now apply rt_restrict_exact]. Qed.

  (* ... hence the snapshot reads as the reference tree continued from r0 itself
     up to the existence of empty child collections *)
  Theorem tree_snapshot_reads_reference_from_mod c f r0 ls cs :
    fn_wf f -> fn_reads_mod fm f r0 ->
    Forall good (cbatches ls) ->
    crun fm c (cinit_from c f) ls = Some cs ->
    reads_mod fm (t_cur_snapshot (c_t cs)) (rt_run r0 (cbatches ls)).
  Proof.
    intros Hw Hr Hg Hrun.
    eapply reads_as_sub.
    - eapply tree_snapshot_reads_reference_from; eauto.
    - apply rt_sub_run; auto. now apply rt_restrict_sub.
  Qed.

  (* the theorem of TreeInvFacts is the instance "empty store" *)
  Lemma cinit_from_empty c : has_ll c = true -> cinit_from c fnode_empty = cinit c.
  Proof. intros H. unfold cinit. rewrite H. reflexivity. Qed.

  Lemma fn_reads_mod_empty : fn_reads_mod fm fnode_empty (RT [] []).
  Proof. constructor; cbn; try (intros; discriminate). reflexivity. Qed.

  Corollary tree_snapshot_reads_reference_again c ls cs :
    has_ll c = true ->
    Forall good (cbatches ls) ->
    crun fm c (cinit c) ls = Some cs ->
    reads_as fm (t_cur_snapshot (c_t cs)) (ref_tree (cbatches ls)).
  Proof.
    intros Hc Hg Hrun. rewrite <- (cinit_from_empty c Hc) in Hrun.
    apply (tree_snapshot_reads_reference_from c fnode_empty (RT [] []) ls cs
             fn_wf_empty fn_reads_mod_empty Hg Hrun).
  Qed.

  (* what Close leaves in the store *)
  Lemma close_reads c R r bs cs a s ch cs' :
    SInv fm c true R cs -> GInv fm c true r bs cs a s ->
    close_choice_ok cs ch -> cclose fm c cs ch = Some cs' ->
    exists n, s <= n /\ n <= length bs /\
              fn_reads_mod fm (c_store cs') (rt_run r (firstn n bs)) /\ fn_wf (c_store cs').
  Proof.
    intros HI HG Hok Hcl. unfold cclose in Hcl. destruct ch as [x|].
    - destruct Hok as [Hok|Hok]; [discriminate|].
      unfold c_update in Hcl.
      destruct (t_base (c_t cs)) as [b0|] eqn:Eb; [|discriminate].
      destruct (tree_persist fm x b0 (c_store cs)) as [f'|] eqn:Etp; [|discriminate].
      destruct (tstep fm c (c_t cs) TClose) as [s'|]; [|discriminate].
      injection Hcl as <-. cbn [c_store].
      destruct HG as (a1 & b & d & ca & cb & cd & Har & _ & HB & _ & _ & LB & _).
      pose proof (si_pers HI) as Hp. rewrite Hok in Hp, Har. cbn [store_idx] in Har.
      rewrite Eb, (Hp eq_refl) in HB. rewrite Eb in LB.
      destruct (persisted_reads x HB LB (si_wf HI) Etp) as [Hrd Hl].
      exists b. split; [lia|]. split; [lia|]. split; [exact Hrd|exact (FLive_wf Hl)].
    - destruct (tstep fm c (c_t cs) TClose) as [s'|]; [|discriminate].
      injection Hcl as <-. cbn [c_store].
      destruct (store_reads HI HG) as (_ & s1 & _ & Hs1 & _ & Hs1' & _ & Hrd & _).
      exists s1. split; [exact Hs1|]. split; [exact Hs1'|]. split; [exact Hrd|exact (si_wf HI)].
  Qed.

  (* At every moment of a run from a store footer, the store's footer tree has
     distinct child names and reads, on its own, as the reference tree after a
     prefix of the executed batches. *)
  Theorem tree_store_reads_prefix_from c f r0 ls cs :
    fn_wf f -> fn_reads_mod fm f r0 ->
    Forall good (cbatches ls) ->
    crun fm c (cinit_from c f) ls = Some cs ->
    exists n, n <= length (cbatches ls) /\ fn_wf (c_store cs) /\
              fn_reads_mod fm (c_store cs) (rt_run r0 (firstn n (cbatches ls))).
  Proof.
    intros Hw Hr Hg Hrun. destruct (crun_from c f r0 ls cs Hw Hr Hg Hrun) as [HI HG].
    destruct (store_reads HI HG) as (_ & s & _ & _ & _ & Hs & _ & Hrd & _).
    exists s. split; [exact Hs|]. split; [exact (si_wf HI)|].
    apply (fn_reads_mod_unrestrict f r0 _ _ Hr (Forall_firstn' _ s _ Hg) Hrd).
  Qed.

  (* ... and that prefix never shrinks: the store at a later moment of the
     same run holds at least as long a prefix as at an earlier one. *)
  Theorem tree_store_prefix_monotone c f r0 ls1 ls2 cs1 cs2 :
    fn_wf f -> fn_reads_mod fm f r0 ->
    Forall good (cbatches (ls1 ++ ls2)) ->
    crun fm c (cinit_from c f) ls1 = Some cs1 ->
    crun fm c cs1 ls2 = Some cs2 ->
    exists n1 n2, n1 <= n2 /\ n1 <= length (cbatches ls1) /\ n2 <= length (cbatches (ls1 ++ ls2)) /\
                  fn_reads_mod fm (c_store cs1) (rt_run r0 (firstn n1 (cbatches ls1))) /\
                  fn_reads_mod fm (c_store cs2) (rt_run r0 (firstn n2 (cbatches (ls1 ++ ls2)))).
  Proof.
    intros Hw Hr Hg Hrun1 Hrun2. rewrite cbatches_app in *.
    pose proof Hg as Hg'. apply Forall_app in Hg'. destruct Hg' as [Hg1 Hg2].
    destruct (crun_from c f r0 ls1 cs1 Hw Hr Hg1 Hrun1) as [HI1 HG1].
    destruct (store_reads HI1 HG1) as (a1 & s1 & _ & _ & _ & Hs1 & _ & Hrd1 & _ & HG1').
    destruct (crun_inv ls2 (Build_CInv HI1 HG1') Hg2 Hrun2) as [HI2 HG2].
    destruct (store_reads HI2 HG2) as (_ & s2 & _ & Hs12 & _ & Hs2 & _ & Hrd2 & _).
    exists s1, s2. split; [exact Hs12|]. split; [exact Hs1|]. split; [exact Hs2|]. split.
    - apply (fn_reads_mod_unrestrict f r0 _ _ Hr (Forall_firstn' _ s1 _ Hg1) Hrd1).
    - apply (fn_reads_mod_unrestrict f r0 _ _ Hr (Forall_firstn' _ s2 _ Hg) Hrd2).
  Qed.

  (* (2) CLOSE.  After any run followed by Close the store's footer tree reads
     as the reference tree after a prefix of the executed batches; that prefix
     (n) is no shorter than the one the store held just before Close (s),
     which is no shorter than the one the lower-level snapshot last published
     to the collection holds (a).  A persistence round may complete during
     Close (ch = Some choice) provided it had not begun (close_choice_ok). *)
  Theorem tree_close_leaves_prefix c f r0 ls cs ch cs' :
    fn_wf f -> fn_reads_mod fm f r0 ->
    Forall good (cbatches ls) ->
    crun fm c (cinit_from c f) ls = Some cs ->
    close_choice_ok cs ch -> cclose fm c cs ch = Some cs' ->
    exists a s n,
      a <= s /\ s <= n /\ n <= length (cbatches ls) /\
      (forall l, t_ll (c_t cs) = Some l ->
                 fn_reads_mod fm l (rt_run r0 (firstn a (cbatches ls)))) /\
      fn_reads_mod fm (c_store cs) (rt_run r0 (firstn s (cbatches ls))) /\
      fn_reads_mod fm (c_store cs') (rt_run r0 (firstn n (cbatches ls))) /\
      fn_wf (c_store cs').
  Proof.
    intros Hw Hr Hg Hrun Hok Hcl. destruct (crun_from c f r0 ls cs Hw Hr Hg Hrun) as [HI HG].
    destruct (store_reads HI HG) as (a & s & _ & _ & Has & Hs & Hll & Hrd & _ & HG').
    destruct (close_reads c _ _ _ cs a s ch cs' HI HG' Hok Hcl) as (n & Hsn & Hn & Hrd' & Hw').
    assert (Hup : forall x m, fn_reads_mod fm x (rt_run (rt_restrict r0 f) (firstn m (cbatches ls))) ->
                              fn_reads_mod fm x (rt_run r0 (firstn m (cbatches ls)))).
    { intros x m. apply (fn_reads_mod_unrestrict f r0 _ _ Hr (Forall_firstn' _ m _ Hg)). }
    exists a, s, n. split; [exact Has|]. split; [exact Hsn|]. split; [exact Hn|].
    split; [|split; [|split]]; auto.
  Qed.

  (* persistence had caught up: nothing pending, nothing with the merger,
     nothing awaiting persistence, the persister idle.  Then what Close leaves
     in the store reads as the WHOLE reference tree. *)
  Theorem tree_caught_up_close_is_complete c f r0 ls cs ch cs' :
    fn_wf f -> fn_reads_mod fm f r0 ->
    Forall good (cbatches ls) ->
    crun fm c (cinit_from c f) ls = Some cs ->
    caught_up cs -> cclose fm c cs ch = Some cs' ->
    fn_reads_mod fm (c_store cs') (rt_run r0 (cbatches ls)) /\ fn_wf (c_store cs').
  Proof.
    intros Hw Hr Hg Hrun Hcu Hcl. destruct (crun_from c f r0 ls cs Hw Hr Hg Hrun) as [HI HG].
    destruct (store_reads HI HG) as (a & s & _ & _ & _ & _ & _ & _ & Es & HG').
    assert (Hok : close_choice_ok cs ch) by (right; apply Hcu).
    destruct (close_reads c _ _ _ cs a s ch cs' HI HG' Hok Hcl) as (n & Hsn & Hn & Hrd' & Hw').
    specialize (Es Hcu).
    assert (n = length (cbatches ls)) by lia. subst n. rewrite firstn_all in Hrd'.
    split; [|exact Hw']. apply (fn_reads_mod_unrestrict f r0 _ _ Hr Hg Hrd').
  Qed.


  (* the snapshot of a collection just reopened on the footer tree ff *)
  Definition reopened_snapshot (c : cfg) (ff : fnode) : sstack :=
    t_cur_snapshot (c_t (cinit_from c ff)).

  Lemma reopened_reads c ff R :
    fn_wf ff -> fn_reads_mod fm ff R -> reads_mod fm (reopened_snapshot c ff) R.
  Proof.
    intros Hw Hr.
    apply (tree_snapshot_reads_reference_from_mod c ff R [] (cinit_from c ff) Hw Hr);
      [constructor|reflexivity].
  Qed.

  Definition is_prefix_of (h : list tbatch) (lc : cycle) : Prop :=
    exists n, h = firstn n (cbatches (fst lc)).

  Lemma cycles_gen c cy : forall f0 r0 sts ff,
    fn_wf f0 -> fn_reads_mod fm f0 r0 -> cycles_good cy ->
    cycles_run fm c f0 cy = Some (sts, ff) ->
    Forall2 (fun cs (lc : cycle) => close_choice_ok cs (snd lc)) sts cy ->
    exists hs,
      Forall2 is_prefix_of hs cy /\
      Forall2 (fun cs hl => caught_up cs -> fst hl = cbatches (fst (snd hl))) sts (combine hs cy) /\
      fn_wf ff /\ fn_reads_mod fm ff (rt_run r0 (concat hs)).
  Proof.
    induction cy as [|[ls ch] q IH]; intros f0 r0 sts ff Hw Hr Hg Hrun Hok; cbn [cycles_run] in Hrun.
    - injection Hrun as <- <-. exists []. cbn [combine concat rt_run fold_left].
      split; [constructor|]. split; [constructor|]. split; [exact Hw|exact Hr].
    - destruct (crun fm c (cinit_from c f0) ls) as [cs|] eqn:Erun; [|discriminate].
      destruct (cclose fm c cs ch) as [cs'|] eqn:Ecl; [|discriminate].
      destruct (cycles_run fm c (c_store cs') q) as [[sts' ff']|] eqn:Erest; [|discriminate].
      injection Hrun as <- <-.
      inversion Hg as [|x y Hg1 Hg2]; subst. cbn [fst] in Hg1.
      inversion Hok as [|x1 y1 l1 l2 Hok1 Hok2]; subst. cbn [snd] in Hok1.
      destruct (crun_from c f0 r0 ls cs Hw Hr Hg1 Erun) as [HI HG].
      destruct (store_reads HI HG) as (a & s & _ & _ & _ & _ & _ & _ & Es & HG').
      destruct (close_reads c _ _ _ cs a s ch cs' HI HG' Hok1 Ecl) as (n & Hsn & Hn & Hrd' & Hw').
      pose proof (fn_reads_mod_unrestrict f0 r0 _ _ Hr (Forall_firstn' _ n _ Hg1) Hrd') as Hrd.
      destruct (IH _ _ _ _ Hw' Hrd Hg2 Erest Hok2) as (hs & Hp & Hc & Hwf & Hrf).
      exists (firstn n (cbatches ls) :: hs). split; [|split; [|split]].
      + constructor; auto. exists n. reflexivity.
      + cbn [combine]. constructor; auto. cbn [fst snd]. intros Hcu.
        specialize (Es Hcu). assert (n = length (cbatches ls)) by lia. subst n. apply firstn_all.
      + exact Hwf.
      + cbn [concat]. rewrite rt_run_app. exact Hrf.
  Qed.

  (* any number of run / close / reopen cycles from the store footer f0: the
     final footer tree — and the snapshot of the collection reopened on it —
     reads as the reference tree continued from r0 through a concatenation of
     per-cycle prefixes of the executed batches, up to the existence of empty
     child collections *)
  Theorem tree_cycles_prefixes c f0 r0 cy sts ff :
    fn_wf f0 -> fn_reads_mod fm f0 r0 -> cycles_good cy ->
    cycles_run fm c f0 cy = Some (sts, ff) ->
    Forall2 (fun cs (lc : cycle) => close_choice_ok cs (snd lc)) sts cy ->
    exists hs,
      Forall2 is_prefix_of hs cy /\
      fn_wf ff /\ fn_reads_mod fm ff (rt_run r0 (concat hs)) /\
      reads_mod fm (reopened_snapshot c ff) (rt_run r0 (concat hs)).
  Proof.
    intros Hw Hr Hg Hrun Hok.
    destruct (cycles_gen c cy f0 r0 sts ff Hw Hr Hg Hrun Hok) as (hs & Hp & _ & Hwf & Hrf).
    exists hs. split; [exact Hp|]. split; [exact Hwf|]. split; [exact Hrf|].
    now apply reopened_reads.
  Qed.

  Lemma cycles_run_length c cy : forall f0 sts ff,
    cycles_run fm c f0 cy = Some (sts, ff) -> length sts = length cy.
  Proof.
    induction cy as [|[ls ch] q IH]; intros f0 sts ff Hrun; cbn [cycles_run] in Hrun.
    - now injection Hrun as <- <-.
    - destruct (crun fm c (cinit_from c f0) ls) as [cs|]; [|discriminate].
      destruct (cclose fm c cs ch) as [cs'|]; [|discriminate].
      destruct (cycles_run fm c (c_store cs') q) as [[sts' ff']|] eqn:Erest; [|discriminate].
      injection Hrun as <- <-. cbn [length]. f_equal. eauto.
  Qed.

  (* ... and when persistence had caught up before every Close, it reads as the
     reference tree of ALL batches of all cycles *)
  Theorem tree_cycles_content c f0 r0 cy sts ff :
    fn_wf f0 -> fn_reads_mod fm f0 r0 -> cycles_good cy ->
    cycles_run fm c f0 cy = Some (sts, ff) ->
    Forall caught_up sts ->
    fn_wf ff /\ fn_reads_mod fm ff (rt_run r0 (concat (cycle_batches cy))) /\
    reads_mod fm (reopened_snapshot c ff) (rt_run r0 (concat (cycle_batches cy))).
  Proof.
    intros Hw Hr Hg Hrun Hcu.
    assert (Hok : Forall2 (fun cs (lc : cycle) => close_choice_ok cs (snd lc)) sts cy).
    { pose proof (cycles_run_length c cy f0 sts ff Hrun) as Hlen.
      clear Hrun Hg. revert cy Hlen. induction Hcu as [|cs sts' H1 H2 IH]; intros [|lc q] Hlen;
        try discriminate; constructor.
      - right. apply H1.
      - apply IH. now injection Hlen. }
    destruct (cycles_gen c cy f0 r0 sts ff Hw Hr Hg Hrun Hok) as (hs & Hp & Hc & Hwf & Hrf).
    assert (Ehs : hs = cycle_batches cy).
    { clear - Hp Hc Hcu. revert sts Hc Hcu. induction Hp as [|h lc hs' q' H1 H2 IH]; intros sts Hc Hcu.
      - reflexivity.
      - cbn [combine] in Hc. inversion Hc as [|cs hl sts' l' Hc1 Hc2]; subst.
        inversion Hcu; subst. cbn [cycle_batches map]. f_equal.
        + apply Hc1; auto.
        + eapply IH; eauto. }
    subst hs. split; [exact Hwf|]. split; [exact Hrf|]. now apply reopened_reads.
  Qed.

  (* ... and whatever the last incarnation then runs, its snapshot reads as the
     reference tree of all batches of the closed cycles followed by its own *)
  Corollary tree_cycles_content_then_run c f0 r0 cy sts ff ls cs :
    fn_wf f0 -> fn_reads_mod fm f0 r0 -> cycles_good cy ->
    cycles_run fm c f0 cy = Some (sts, ff) ->
    Forall caught_up sts ->
    Forall good (cbatches ls) ->
    crun fm c (cinit_from c ff) ls = Some cs ->
    reads_mod fm (t_cur_snapshot (c_t cs))
              (rt_run r0 (concat (cycle_batches cy) ++ cbatches ls)).
  Proof.
    intros Hw Hr Hg Hrun Hcu Hgl Hrl.
    destruct (tree_cycles_content c f0 r0 cy sts ff Hw Hr Hg Hrun Hcu) as (Hwf & Hrf & _).
    rewrite rt_run_app.
    apply (tree_snapshot_reads_reference_from_mod c ff _ ls cs Hwf Hrf Hgl Hrl).
  Qed.

  (* the instance the property speaks about: a fresh store, any number of
     caught-up cycles: the final reopened snapshot reads as the reference tree
     of everything that was written *)
  Corollary tree_cycles_content_fresh c cy sts ff :
    cycles_good cy ->
    cycles_run fm c fnode_empty cy = Some (sts, ff) ->
    Forall caught_up sts ->
    reads_mod fm (reopened_snapshot c ff) (ref_tree (concat (cycle_batches cy))).
  Proof.
    intros Hg Hrun Hcu.
    apply (tree_cycles_content c fnode_empty (RT [] []) cy sts ff
             fn_wf_empty fn_reads_mod_empty Hg Hrun Hcu).
  Qed.
End FromStore.

(* every footer the system of TreeInvFacts can reach (from the empty
   collection over the empty store) has distinct child names: the hypothesis
   fn_wf of the theorems above holds of every reachable store *)
Theorem tree_reachable_store_wf fm c ls cs :
  Forall (fun b => tb_good b = true) (cbatches ls) ->
  crun fm c (cinit c) ls = Some cs -> fn_wf (c_store cs).
Proof.
  intros Hg Hrun. destruct (crun_inv ls (cinv_init fm c) Hg Hrun) as [HI _]. exact (si_wf HI).
Qed.

(* The harness's Close and Reopen are the steps used here: TreeRun.trstep
   (the runner that replays recorded traces, over fm0) and the system of this
   file agree on THClose and THReopen, field by field. *)
Definition cst_of (r : TreeRun.trs) : cst :=
  {| c_t := TreeRun.ts r; c_pend := TreeRun.tpend r; c_store := TreeRun.tstore r |}.

Lemma trstep_close_is_cclose r ch r' :
  TreeRun.trstep r (TreeRun.THClose ch) = Some r' ->
  cclose FlatRun.fm0 (TreeRun.tconf r) (cst_of r) ch = Some (cst_of r') /\
  TreeRun.tconf r' = TreeRun.tconf r.
Proof.
  unfold TreeRun.trstep, cclose, cst_of, c_update, TreeRun.do_tree_update. cbn [c_t c_store c_pend].
  destruct ch as [x|].
  - destruct (t_base (TreeRun.ts r)) as [b|]; [|discriminate].
    destruct (tree_persist FlatRun.fm0 x b (TreeRun.tstore r)) as [f'|]; [|discriminate].
    destruct (tstep FlatRun.fm0 (TreeRun.tconf r) (TreeRun.ts r) TClose) as [s|]; [|discriminate].
    intros [= <-]. split; reflexivity.
  - destruct (tstep FlatRun.fm0 (TreeRun.tconf r) (TreeRun.ts r) TClose) as [s|]; [|discriminate].
    intros [= <-]. split; reflexivity.
Qed.

Lemma trstep_reopen_is_cinit_from r r' :
  TreeRun.trstep r TreeRun.THReopen = Some r' ->
  cst_of r' = cinit_from (TreeRun.tconf r) (TreeRun.tstore r) /\
  TreeRun.tconf r' = TreeRun.tconf r.
Proof.
  unfold TreeRun.trstep, cinit_from, cst_of.
  destruct (TreeRun.topen r); [discriminate|].
  destruct (restore 0 (TreeRun.tstore r)) as [coll f'].
  intros [= <-]. split; reflexivity.
Qed.

Definition cy_n : cname := [1%N].
Definition cy_k : bytes := [7%N].
Definition cy_cfg : cfg := {| cache_persisted := false; has_ll := true |}.
(* one full merger round and persistence round *)
Definition cy_round (ch : persist_choice) : list clabel :=
  [CIngest; CSwap (LT 0 [(cy_n, LT 0 [])]); CHandover; CPBegin ch; CPPublish].

(* (a) The condition close_choice_ok cannot be dropped from
   tree_close_leaves_prefix.  The model's Close (TreeRun.trstep, THClose
   (Some ch); mirrored by cclose) persists base onto the store's footer in
   ANY persister state.  If the round had already begun (PUpdating: the store
   already holds the round's footer) the same stack is persisted a second
   time, and with a Merge operand in it the footer reads as no prefix of the
   history: ":a:a" where the reference has nothing or ":a".  The harness
   reports a round completing during Close only while the persister is parked
   before LowerLevelUpdate (director/coll.go, inflight), i.e. PIdle. *)
Definition cy_twice : list clabel :=
  [CBatch (TB [(cy_k, OMerge [97%N])] []); CIngest; CSwap (LT 0 []); CHandover; CPBegin PAppend].

Theorem tree_close_after_begun_round_refuted :
  exists cs cs',
    Forall (fun b => tb_good b = true) (cbatches cy_twice) /\
    crun fm_append cy_cfg (cinit_from cy_cfg fnode_empty) cy_twice = Some cs /\
    t_persister (c_t cs) = PUpdating /\
    cclose fm_append cy_cfg cs (Some PAppend) = Some cs' /\
    forall n, ~ fn_reads_mod fm_append (c_store cs')
                             (rt_run (RT [] []) (firstn n (cbatches cy_twice))).
Proof.
  do 2 eexists. split; [repeat constructor|]. split; [vm_compute; reflexivity|].
  split; [reflexivity|]. split; [vm_compute; reflexivity|].
  intros n H. inversion H as [f r Hg F2 F3 F4]; subst. specialize (Hg cy_k).
  destruct n as [|[|n]]; vm_compute in Hg; discriminate.
Qed.

(* (b) "Up to the existence of empty child collections" cannot be dropped
   from the cycle theorems (known finding F10b).  A batch that only creates
   an empty child collection leaves nothing to persist: the round is a no-op,
   persistence has caught up, and after Close and reopen the child is gone
   while the reference tree has it. *)
Definition cy_lost : list clabel := CBatch (TB [] [(cy_n, Some (TB [] []))]) :: cy_round PNoop.

Theorem tree_cycles_exact_refuted :
  exists sts ff,
    cycles_good [(cy_lost, None)] /\
    cycles_run fm_append cy_cfg fnode_empty [(cy_lost, None)] = Some (sts, ff) /\
    Forall (caught_up) sts /\
    assoc cy_n (rt_kids (ref_tree (concat (cycle_batches [(cy_lost, None)])))) <> None /\
    assoc cy_n (ss_kids (reopened_snapshot cy_cfg ff)) = None /\
    ~ reads_as fm_append (reopened_snapshot cy_cfg ff)
               (ref_tree (concat (cycle_batches [(cy_lost, None)]))).
Proof.
  do 2 eexists. split; [repeat constructor|]. split; [vm_compute; reflexivity|].
  split; [repeat constructor|]. split; [vm_compute; discriminate|]. split; [reflexivity|].
  intros H. inversion H as [s r Hg0 Hn Hk0]; subst. specialize (Hn cy_n).
  vm_compute in Hn. destruct Hn as [_ Hn]. destruct Hn; auto.
Qed.

(* (c) the cycle theorems are not vacuous: three incarnations, each catching
   up before its Close (append, append, full compaction), a child collection
   written in every incarnation, a Merge operand resolved against what an
   earlier incarnation persisted *)
Definition cy_c1 : list clabel :=
  CBatch (TB [(cy_k, OSet [100%N])] [(cy_n, Some (TB [(cy_k, OSet [100%N])] []))]) :: cy_round PAppend.
Definition cy_c2 : list clabel :=
  CBatch (TB [] [(cy_n, Some (TB [(cy_k, OMerge [97%N])] []))]) :: cy_round PAppend.
Definition cy_c3 : list clabel :=
  CBatch (TB [(cy_k, OMerge [98%N])] [(cy_n, Some (TB [(cy_k, OMerge [98%N])] []))])
         :: cy_round (PCompact 0).
Definition cy_three : list cycle := [(cy_c1, None); (cy_c2, None); (cy_c3, None)].

Example tree_cycles_example :
  exists sts ff s,
    cycles_good cy_three /\
    cycles_run fm_append cy_cfg fnode_empty cy_three = Some (sts, ff) /\
    Forall caught_up sts /\
    ss_get fm_append (reopened_snapshot cy_cfg ff) cy_k = Some [100; 58; 98]%N /\
    assoc cy_n (ss_kids (reopened_snapshot cy_cfg ff)) = Some s /\
    ss_get fm_append s cy_k = Some [100; 58; 97; 58; 98]%N.
Proof.
  do 3 eexists. split; [repeat constructor|]. split; [vm_compute; reflexivity|].
  split; [repeat constructor|]. split; [vm_compute; reflexivity|].
  split; vm_compute; reflexivity.
Qed.

Print Assumptions tree_snapshot_reads_reference_from.
Print Assumptions tree_snapshot_reads_reference_from_mod.
Print Assumptions rt_restrict_spec.
Print Assumptions tree_snapshot_reads_reference_again.
Print Assumptions tree_store_reads_prefix_from.
Print Assumptions tree_store_prefix_monotone.
Print Assumptions tree_close_leaves_prefix.
Print Assumptions tree_caught_up_close_is_complete.
Print Assumptions tree_cycles_prefixes.
Print Assumptions tree_cycles_content.
Print Assumptions tree_cycles_content_then_run.
Print Assumptions tree_cycles_content_fresh.
Print Assumptions tree_reachable_store_wf.
Print Assumptions trstep_close_is_cclose.
Print Assumptions trstep_reopen_is_cinit_from.
Print Assumptions tree_close_after_begun_round_refuted.
Print Assumptions tree_cycles_exact_refuted.
Print Assumptions tree_cycles_example.
