(* OwnersRevertProgressFacts.v -- PROGRESS of the EXTENDED ownership model
   (OwnersRevert.v): from every state a sequence of operations of the current
   code reaches, XPrev, XRevert, XOpenColl and every embedded operation of
   Owners.v run to their end, so the C15_revert_* statements hold for every
   legal sequence without the premise that xrun succeeds.  Invariant, rules,
   tactic: OwnersProgressRules.v, OwnersProgressLoops.v; the operations of
   Owners.v: OwnersProgressFacts.v. *)
From Coq Require Import List Arith Bool Lia.
From Moss Require Import Owners OwnersFacts OwnersRevert OwnersRevertFacts
  OwnersProgress OwnersProgressRules OwnersProgressLoops OwnersProgressFacts.
Import ListNotations.

Lemma runs_each_settag ks e : forall s (Q : state -> Prop), G s -> allk (hp s) ks KFooter ->
  (forall h', G (with_hp s h' (files s) (elog s)) ->
              grow (hp s) h' ->
              Q (with_hp s h' (files s) (elog s))) ->
  runs (each ks (fun k => settag k e)) s Q.
Proof.
  induction ks as [|k r IH]; intros s Q HG A K; destruct s as [h fs rg hs l lk lg c]; simpl each; norm.
  - apply runs_ret. apply K; auto. apply grow_refl.
  - assert (A' : allk h r KFooter) by (intros x Hx; apply A; right; exact Hx).
    assert (Hk : hask h k KFooter) by (apply A; left; reflexivity).
    apply runs_bind.
    apply (runs_retag (settag k e) (fun ob => set_file ob e) k _ _ (fun _ => eq_refl) (pres_settag k e)
             (fun _ => ltac:(repeat split)) HG (hask_exists _ _ _ Hk)).
    intros h1 HG1 Hgr1. norm. tr_grow Hgr1. apply IH; auto.
    intros h2 HG2 Hgr2. norm. apply K; auto. grow_tac.
Qed.

Lemma runs_revert_kids cs : forall acc cont s (Q : state -> Prop), G s -> allk (hp s) cs KFooter ->
  kont grow KFooter cont acc s Q -> runs (revert_kids cs acc cont) s Q.
Proof.
  induction cs as [|c r IH]; intros acc cont s Q HG A K; [exact (kont_nil _ _ _ _ _ _ grow_refl HG K)|].
  destruct s as [h fs rg hs l lk lg c0]. simpl revert_kids. norm.
  assert (Hc : hask h c KFooter) by (apply A; left; reflexivity).
  assert (A' : allk h r KFooter) by (intros x Hx; apply A; right; exact Hx).
  rstepL. rstepL. rstepL. rstepL. rstepL. apply IH; auto. kont_grow K.
Qed.

Ltac rstepY :=
  norm;
  lazymatch goal with
  | |- runs (revert_kids ?cs ?acc ?cont) ?s _ =>
      withG ltac:(fun HG =>
        apply (runs_revert_kids cs acc cont s _ HG); [ norm; try solve [allk_tac] | kont_intro HG ])
  | |- runs (revert_footer _ _) _ _ => unfold revert_footer
  | |- runs (rd (file_ref _) _) _ _ => unfold file_ref
  | |- _ => rstepL
  end.
Ltac goy := repeat rstepY.
Ltac goyf := goy; try fin.

Lemma ok_prev2 a fd n1 n2 n3 : ok (op_prev2 a fd n1 n2 n3).
Proof. start. unfold op_prev2. goyf. Qed.

Lemma ok_revert a m : ok (op_revert a m).
Proof. start. unfold op_revert. goyf. Qed.

Lemma ok_open_coll s : Good s -> Cinv s -> runs (op_open_coll ;; finish) s Good.
Proof.
  intros HGd [Cv _]. revert HGd. start. unfold op_open_coll. rstepY. rstepY; [|fin].
  assert (Ell : rg SLL = None).
  { match goal with Hc : copen c = false |- _ => destruct (Cv Hc) as [_ [_ N]] end.
    unfold none_at, coll_slots in N. simpl in N. destruct (rg SLL); [discriminate N|reflexivity]. }
  goy; try fin. unfold with_ct in *. norm.
  match goal with
  | |- runs (each ?ks (fun k => settag k ?e)) ?s _ =>
      withG ltac:(fun HG => apply (runs_each_settag ks e s _ HG)); norm
  end.
  - match goal with
    | HG : G ?s, Hk : hask _ ?o KFooter |- allk _ (kids_of ?o _) _ =>
        eapply allhas_allk; exact (proj1 (kids_facts s o KFooter HG Hk))
    end.
  - intros h2 HG2 Hgr2. fin;
      match goal with Hc : copen c = false |- _ => destruct (Cv Hc) as [M [P _]] end;
      try (destruct C1 as [A B]; [lia|]; assumption); try (apply C2; lia).
Qed.

(* an embedded SnapshotPrevious of Owners.v is not of the current code of the extended system
   (XPrev supersedes it) but runs like every operation of the current code of Owners.v *)
Definition xrunnable (x : xop) : bool :=
  match x with XOp o => current_code o | _ => true end.

Lemma xcurrent_runnable x : xcurrent_code x = true -> xrunnable x = true.
Proof. destruct x as [[]| | |]; auto. Qed.

Theorem xstep_runs x st : Good st -> Cinv st -> xrunnable x = true ->
  exists st', xstep x st = Some st' /\ Good st' /\ Cinv st'.
Proof.
  intros HG HC C.
  assert (P : exists st', xstep x st = Some st' /\ Good st').
  { unfold xstep. destruct x as [o|h fd a b c|h m|]; simpl xbody.
    - exact (step_progress o st HG C).
    - apply ok_prev2; auto.
    - apply ok_revert; auto.
    - apply ok_open_coll; auto. }
  destruct P as [st' [E HG']]. exists st'. split; auto. split; auto. eapply xstep_Cinv; eauto.
Qed.

Theorem xstep_progress x st : Good st -> Cinv st -> xcurrent_code x = true ->
  exists st', xstep x st = Some st' /\ Good st' /\ Cinv st'.
Proof. intros HG HC C. apply xstep_runs; auto. apply xcurrent_runnable, C. Qed.

Lemma xrunnable_run ops : forall st, Good st -> Cinv st -> forallb xrunnable ops = true ->
  exists st', xrun_from st ops = Some st' /\ Good st' /\ Cinv st'.
Proof.
  induction ops as [|o r IH]; intros st HG HC F; simpl in *.
  - eauto.
  - apply andb_prop in F. destruct F as [F1 F2].
    destruct (xstep_runs o st HG HC F1) as [s [E [Hs Cs]]]. rewrite E. apply IH; auto.
Qed.

Inductive xreachable : state -> Prop :=
  | xreach_init : xreachable init
  | xreach_step : forall st x st', xreachable st -> xlegal st x = true -> xstep x st = Some st' ->
                                   xreachable st'.

Lemma xreachable_good st : xreachable st -> Good st /\ Cinv st.
Proof.
  induction 1 as [|st x st' R [IH1 IH2] L E]; [split; [exact Good_init|exact Cinv_init]|].
  destruct (xstep_progress x st IH1 IH2 L) as [s [E' Hs]]. congruence.
Qed.

Theorem xlegal_step_never_faults : forall st x,
  xreachable st -> xlegal st x = true -> exists st', xstep x st = Some st'.
Proof.
  intros st x R L. destruct (xreachable_good st R) as [H1 H2].
  destruct (xstep_progress x st H1 H2 L) as [s [E _]]. eauto.
Qed.

Theorem xlegal_seq_iff ops : xlegal_seq ops = true <-> forallb xcurrent_code ops = true.
Proof.
  unfold xlegal_seq. generalize init, Good_init, Cinv_init.
  induction ops as [|o r IH]; intros st HG HC; simpl; [tauto|].
  unfold xlegal at 1. destruct (xcurrent_code o) eqn:C; simpl; [|split; discriminate].
  destruct (xstep_progress o st HG HC C) as [s [E [Hs Cs]]]. rewrite E. apply IH; auto.
Qed.

Theorem xlegal_use_never_faults : forall ops, xlegal_seq ops = true -> exists st, xrun ops = Some st.
Proof.
  intros ops L. apply xlegal_seq_iff in L.
  destruct (xrunnable_run ops init Good_init Cinv_init) as [st [E _]]; [|eauto].
  rewrite forallb_forall in *. intros x Hx. apply xcurrent_runnable, L, Hx.
Qed.

Theorem x_ownership_invariant_unconditional : forall ops, xlegal_seq ops = true ->
  exists st, xrun ops = Some st /\
    forall o, cnt_of (hp st) o = cn o (roots st) + cn o (allrefs (hp st)).
Proof.
  intros ops L. destruct (xlegal_use_never_faults ops L) as [st E]. exists st. split; auto.
  eapply x_ownership_invariant; eauto.
Qed.

Theorem x_no_dangling_reference_unconditional : forall ops, xlegal_seq ops = true ->
  exists st, xrun ops = Some st /\
    (forall o, In o (roots st) -> cnt_of (hp st) o > 0) /\
    (forall a ob r, nth_error (hp st) a = Some ob -> In r (orefs ob) ->
                    o_cnt ob > 0 /\ cnt_of (hp st) r > 0).
Proof.
  intros ops L. destruct (xlegal_use_never_faults ops L) as [st E]. exists st. split; auto.
  eapply x_no_dangling_reference; eauto.
Qed.

Theorem x_handle_data_alive_unconditional : forall ops, xlegal_seq ops = true ->
  exists st, xrun ops = Some st /\
    forall hd r o, In hd (handles st) -> In r (hrefs hd) -> reach (hp st) r o ->
      cnt_of (hp st) o > 0.
Proof.
  intros ops L. destruct (xlegal_use_never_faults ops L) as [st E]. exists st. split; auto.
  eapply x_handle_data_alive; eauto.
Qed.

Theorem x_all_closed_all_released_unconditional : forall ops, xlegal_seq ops = true ->
  exists st, xrun ops = Some st /\
    (all_closed st ->
     (forall o, cnt_of (hp st) o = 0) /\ open_fds st = [] /\ mappings st = 0).
Proof.
  intros ops L. destruct (xlegal_use_never_faults ops L) as [st E]. exists st. split; auto.
  intros AC. eapply x_all_closed_all_released_current_code; eauto. apply xlegal_seq_iff. exact L.
Qed.

(* satisfiable on a history with a revert, a previous snapshot and a re-opened collection *)
Definition xw_progress : list xop :=
  [XOp (OpBatch true); XOp OpMergerIngest; XOp (OpMergerSwap BrMerged); XOp OpMergerHandover;
   XOp OpPersistBegin; XOp (OpPersistRun (PAppend false 1 1)); XOp (OpPersistPublish false);
   XOp OpStoreSnap; XOp (OpBatch false); XOp OpMergerIngest; XOp (OpMergerSwap BrMerged);
   XOp OpMergerHandover; XOp OpPersistBegin; XOp (OpPersistRun (PAppend false 1 0));
   XOp (OpPersistPublish false); XPrev 0 true 1 1 1; XRevert 0 RvDone; XRevert 1 RvWriteFail;
   XOp OpCollClose; XOpenColl; XOp OpSnapFresh;
   XOp (OpCloseH 0); XOp (OpCloseH 0); XOp (OpCloseH 0); XOp OpCollClose; XOp OpStoreClose].
Example xlegal_seq_witness :
  xlegal_seq xw_progress = true /\
  match xrun xw_progress with Some st => all_closed_b st = true /\ length (hp st) > 10 | None => False end.
Proof. vm_compute. split; [reflexivity|split; [reflexivity|lia]]. Qed.

Print Assumptions xstep_progress.
Print Assumptions xlegal_step_never_faults.
Print Assumptions xlegal_use_never_faults.
Print Assumptions xlegal_seq_iff.
Print Assumptions x_ownership_invariant_unconditional.
Print Assumptions x_no_dangling_reference_unconditional.
Print Assumptions x_handle_data_alive_unconditional.
Print Assumptions x_all_closed_all_released_unconditional.
