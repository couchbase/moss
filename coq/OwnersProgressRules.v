(* OwnersProgressRules.v -- a KIND discipline on top of the ownership invariant
   Inv of OwnersFacts.v (Ty: a mapping holds a FileRef, a footer mappings and child
   footers, a wrapper a footer, a stack at most one wrapper and child stacks;
   RootsTy: the kinds of what roots and handles point to; G = Inv /\ Ty /\ RootsTy),
   and one total-correctness rule per primitive of the little language of Owners.v:
   under G the primitive runs, re-establishes G and changes the state as stated. *)
From Coq Require Import List Arith Bool Lia.
From Moss Require Import ListFacts Owners OwnersFacts OwnersProgress.
Import ListNotations.

Definition okeep (ob ob' : obj) : Prop := o_kind ob' = o_kind ob /\ o_top ob' = o_top ob.
Definition kext : heap -> heap -> Prop := hrel okeep.

(* AddRef, a new object: nothing is lost *)
Definition ogrow (ob ob' : obj) : Prop :=
  o_kind ob' = o_kind ob /\ o_top ob' = o_top ob /\
  o_refs ob' = o_refs ob /\ o_kids ob' = o_kids ob /\ o_cnt ob <= o_cnt ob'.
Definition grow : heap -> heap -> Prop := hrel ogrow.

(* DecRef with its cascade: what is alive afterwards was alive and holds what it held *)
Definition odec (ob ob' : obj) : Prop :=
  o_kind ob' = o_kind ob /\ o_top ob' = o_top ob /\
  (o_cnt ob' > 0 -> o_refs ob' = o_refs ob /\ o_kids ob' = o_kids ob /\ o_cnt ob > 0).
Definition dec (h h' : heap) : Prop := length h' = length h /\ hrel odec h h'.

Lemma hrel_impl (P Q : obj -> obj -> Prop) h h' : (forall x y, P x y -> Q x y) -> hrel P h h' -> hrel Q h h'.
Proof. intros PQ H o ob E. destruct (H o ob E) as [ob' [E' X]]. eauto. Qed.

Lemma okeep_refl ob : okeep ob ob.
Proof. split; reflexivity. Qed.
Lemma ogrow_refl ob : ogrow ob ob.
Proof. unfold ogrow. auto 6. Qed.
Lemma odec_refl ob : odec ob ob.
Proof. unfold odec. auto 6. Qed.
Lemma odec_trans x y z : odec x y -> odec y z -> odec x z.
Proof.
  intros [K1 [T1 P1]] [K2 [T2 P2]]. split; [congruence|]. split; [congruence|]. intros C.
  destruct (P2 C) as [A [B C']]. destruct (P1 C') as [A' [B' C'']]. repeat split; congruence || assumption.
Qed.

Lemma kext_refl h : kext h h.
Proof. apply hrel_refl, okeep_refl. Qed.
Lemma kext_trans a b c : kext a b -> kext b c -> kext a c.
Proof. apply hrel_trans. intros x y z [K1 T1] [K2 T2]. split; congruence. Qed.
Lemma grow_refl h : grow h h.
Proof. apply hrel_refl, ogrow_refl. Qed.
Lemma grow_trans a b c : grow a b -> grow b c -> grow a c.
Proof.
  apply hrel_trans. intros x y z [K1 [T1 [R1 [D1 C1]]]] [K2 [T2 [R2 [D2 C2]]]].
  repeat split; try congruence. lia.
Qed.
Lemma grow_kext a b : grow a b -> kext a b.
Proof. apply hrel_impl. intros x y [K [T _]]. split; assumption. Qed.
Lemma dec_refl h : dec h h.
Proof. split; [reflexivity|apply hrel_refl, odec_refl]. Qed.
Lemma dec_kext a b : dec a b -> kext a b.
Proof. intros [_ H]. revert H. apply hrel_impl. intros x y [K [T _]]. split; assumption. Qed.

Lemma kext_upd h o ob ob' : nth_error h o = Some ob ->
  o_kind ob' = o_kind ob -> o_top ob' = o_top ob -> kext h (upd o ob' h).
Proof. intros Ho K T. apply hrel_upd with (ob := ob); [apply okeep_refl|exact Ho|split; assumption]. Qed.
Lemma grow_upd h o ob ob' : nth_error h o = Some ob ->
  o_kind ob' = o_kind ob -> o_top ob' = o_top ob -> o_refs ob' = o_refs ob ->
  o_kids ob' = o_kids ob -> o_cnt ob <= o_cnt ob' -> grow h (upd o ob' h).
Proof. intros Ho K T R D C. apply hrel_upd with (ob := ob); [apply ogrow_refl|exact Ho|repeat split; assumption]. Qed.
Lemma grow_snoc h ob : grow h (h ++ [ob]).
Proof. apply hrel_snoc, ogrow_refl. Qed.

Definition has (h : heap) (o : oid) (k : kind) (t : bool) : Prop :=
  exists ob, nth_error h o = Some ob /\ o_kind ob = k /\ o_top ob = t.
Definition hask (h : heap) (o : oid) (k : kind) : Prop := exists t, has h o k t.
Definition live (h : heap) (o : oid) : Prop := cnt_of h o > 0.
Definition allk (h : heap) (l : list oid) (k : kind) : Prop := forall c, In c l -> hask h c k.
Definition allhas (h : heap) (l : list oid) (k : kind) (t : bool) : Prop := forall c, In c l -> has h c k t.
Definition alllive (h : heap) (l : list oid) : Prop := forall c, In c l -> live h c.

Lemma has_kext h h' o k t : kext h h' -> has h o k t -> has h' o k t.
Proof.
  intros K [ob [E [A B]]]. destruct (K o ob E) as [ob' [E' [A' B']]]. exists ob'.
  repeat split; congruence.
Qed.
Lemma hask_kext h h' o k : kext h h' -> hask h o k -> hask h' o k.
Proof. intros K [t H]. exists t. eapply has_kext; eauto. Qed.
Lemma has_hask h o k t : has h o k t -> hask h o k.
Proof. intros H. exists t. exact H. Qed.
Lemma hask_exists h o k : hask h o k -> exists ob, nth_error h o = Some ob.
Proof. intros [t [ob [E _]]]. eauto. Qed.
Lemma live_grow h h' o : grow h h' -> live h o -> live h' o.
Proof.
  unfold live, cnt_of. intros Gr L. destruct (nth_error h o) as [ob|] eqn:E; [|lia].
  destruct (Gr o ob E) as [ob' [E' [_ [_ [_ [_ C]]]]]]. rewrite E'. lia.
Qed.

(* the kind of what an object of kind k holds a counted reference on *)
Definition ref_kind (k : kind) : kind :=
  match k with KFile => KFile | KMmap => KFile | KFooter => KMmap | KWrap => KFooter | KStack => KWrap end.

Definition ty_obj (h : heap) (ob : obj) : Prop :=
  (forall r, In r (o_refs ob) -> o_kind ob <> KFile /\ hask h r (ref_kind (o_kind ob))) /\
  (forall c, In c (o_kids ob) ->
     (o_kind ob = KFooter \/ o_kind ob = KStack) /\ has h c (o_kind ob) false) /\
  (o_kind ob = KStack -> length (o_refs ob) <= 1).
Definition Ty (h : heap) : Prop := forall a ob, nth_error h a = Some ob -> ty_obj h ob.

Lemma ty_obj_kext h h' ob : kext h h' -> ty_obj h ob -> ty_obj h' ob.
Proof.
  intros K [A [B C]]. split; [|split]; auto.
  - intros r Hr. destruct (A r Hr) as [N H]. split; auto. eapply hask_kext; eauto.
  - intros c Hc. destruct (B c Hc) as [N H]. split; auto. eapply has_kext; eauto.
Qed.
Lemma ty_obj_same h ob ob' : o_kind ob' = o_kind ob -> o_refs ob' = o_refs ob ->
  o_kids ob' = o_kids ob -> ty_obj h ob -> ty_obj h ob'.
Proof. unfold ty_obj. intros -> -> ->. auto. Qed.
Lemma ty_obj_empty h ob : o_refs ob = [] -> o_kids ob = [] -> ty_obj h ob.
Proof. unfold ty_obj. intros -> ->. simpl. repeat split; try contradiction. lia. Qed.

Lemma Ty_upd h o ob ob' : Ty h -> nth_error h o = Some ob ->
  o_kind ob' = o_kind ob -> o_top ob' = o_top ob -> ty_obj h ob' -> Ty (upd o ob' h).
Proof.
  intros T Ho K Tp W. pose proof (kext_upd h o ob ob' Ho K Tp) as X.
  intros a oa Ha. destruct (Nat.eq_dec o a) as [->|N].
  - rewrite nth_upd_same in Ha by (apply nth_error_Some; congruence). inversion Ha; subst.
    eapply ty_obj_kext; eauto.
  - rewrite nth_upd_other in Ha by auto. eapply ty_obj_kext; eauto.
Qed.
Lemma Ty_snoc h ob : Ty h -> ty_obj h ob -> Ty (h ++ [ob]).
Proof.
  intros T W a oa Ha. pose proof (grow_kext _ _ (grow_snoc h ob)) as X.
  destruct (lt_dec a (length h)).
  - rewrite nth_error_app1 in Ha by lia. eapply ty_obj_kext; eauto.
  - rewrite nth_error_app2 in Ha by lia. destruct (a - length h) as [|k]; simpl in Ha.
    + inversion Ha; subst. eapply ty_obj_kext; eauto.
    + destruct k; discriminate.
Qed.

Lemma release_frame fuel work h fs lg h' fs' lg' :
  Ty h -> release fuel work h fs lg = Some (h', fs', lg') -> Ty h' /\ dec h h'.
Proof.
  intros T H.
  enough (X : (Ty h' /\ length h' = length h) /\ hrel odec h h')
    by (destruct X as [[T' L] D]; split; [exact T'|split; [exact L|exact D]]).
  apply (release_hrel (fun h0 => Ty h0 /\ length h0 = length h) odec odec_refl odec_trans) with (4 := H);
    [| |auto].
  - intros h0 o ob [T0 L0] Ho Ec. rewrite upd_length. split; [split; [|exact L0]|].
    + exact (Ty_upd h0 o ob (cleared ob) T0 Ho eq_refl eq_refl (ty_obj_empty _ (cleared ob) eq_refl eq_refl)).
    + unfold odec. simpl. repeat split; lia.
  - intros h0 o ob n [T0 L0] Ho Ec. rewrite upd_length. split; [split; [|exact L0]|].
    + exact (Ty_upd h0 o ob (set_cnt ob (S n)) T0 Ho eq_refl eq_refl
               (ty_obj_same _ _ _ eq_refl eq_refl eq_refl (T0 o ob Ho))).
    + unfold odec. simpl. repeat split; lia.
Qed.

Definition slot_kind (s : slot) : kind :=
  match s with SFooter | PNext => KFooter | SLL => KWrap | _ => KStack end.

Definition okind (h : heap) (x : option oid) (k : kind) : Prop :=
  match x with Some o => hask h o k | None => True end.

Definition handle_ty (h : heap) (hd : handle) : Prop :=
  match hd with
  | HSnap s => hask h s KStack
  | HFoot f => hask h f KFooter
  | HIter ss ll c | HIter_pre_fix ss ll c => okind h ss KStack /\ okind h ll KFooter /\ okind h c KFooter
  end.

Definition RootsTy (st : state) : Prop :=
  (forall sl o, regs st sl = Some o -> hask (hp st) o (slot_kind sl)) /\
  (forall hd, In hd (handles st) -> handle_ty (hp st) hd).

Definition G (st : state) : Prop := Inv st /\ Ty (hp st) /\ RootsTy st.

Lemma okind_kext h h' x k : kext h h' -> okind h x k -> okind h' x k.
Proof. destruct x; simpl; auto. apply hask_kext. Qed.
Lemma handle_ty_kext h h' hd : kext h h' -> handle_ty h hd -> handle_ty h' hd.
Proof.
  intros K. destruct hd; simpl; try (apply hask_kext; exact K);
    intros [A [B C]]; repeat split; eapply okind_kext; eauto.
Qed.

Lemma RootsTy_ext st st' : kext (hp st) (hp st') ->
  (forall sl o, regs st' sl = Some o -> regs st sl = Some o \/ hask (hp st') o (slot_kind sl)) ->
  (forall hd, In hd (handles st') -> In hd (handles st) \/ handle_ty (hp st') hd) ->
  RootsTy st -> RootsTy st'.
Proof.
  intros K R H [A B]. split.
  - intros sl o E. destruct (R sl o E) as [E'|E']; auto. eapply hask_kext; eauto.
  - intros hd Hin. destruct (H hd Hin) as [E'|E']; auto. eapply handle_ty_kext; eauto.
Qed.

(* liveness from the invariant *)
Lemma live_root st o : G st -> In o (roots st) -> live (hp st) o.
Proof. intros [[A _ _] _] Hin. unfold live. rewrite (A o). apply cn_in in Hin. lia. Qed.
Lemma live_ref st a ob o : G st -> nth_error (hp st) a = Some ob -> In o (orefs ob) -> live (hp st) o.
Proof.
  intros [[A _ _] _] Ha Hin. unfold live. rewrite (A o).
  assert (In o (allrefs (hp st))) by (eapply in_allrefs; eauto). apply cn_in in H. lia.
Qed.
Lemma live_has h o : live h o -> exists ob, nth_error h o = Some ob /\ o_cnt ob > 0.
Proof. unfold live, cnt_of. destruct (nth_error h o) as [ob|]; [eauto|lia]. Qed.

Definition runs (m : M) (s : state) (Q : state -> Prop) : Prop := exists s', m s = Some s' /\ Q s'.
(* the rules say what a step leaves of a state s by with_hp and with_hand; simplification
   turns that into the record *)
Arguments with_hp _ _ _ _ /.
Arguments with_hand _ _ /.
Definition hsplit (l rs l' : list oid) : Prop := forall x, cn x l = cn x rs + cn x l'.
Definition hle (rs l : list oid) : Prop := forall x, cn x rs <= cn x l.
Definition hbal (l N P : list oid) : Prop := forall x, cn x l + cn x N = cn x P.

Lemma runs_ret s (Q : state -> Prop) : Q s -> runs ret s Q.
Proof. intros H. exists s. split; auto. Qed.
Lemma runs_bind a b s Q : runs a s (fun s1 => runs b s1 Q) -> runs (a ;; b) s Q.
Proof. intros [s1 [E [s2 [E2 H]]]]. exists s2. unfold bind. rewrite E. auto. Qed.
Lemma runs_rd {A} (f : state -> A) k s Q : runs (k (f s)) s Q -> runs (rd f k) s Q.
Proof. auto. Qed.
Lemma runs_guard b m s (Q : state -> Prop) :
  (b s = true -> runs m s Q) -> (b s = false -> Q s) -> runs (guard b m) s Q.
Proof.
  intros H1 H2. unfold runs, guard. destruct (b s); [apply H1; auto|]. exists s. auto.
Qed.
Lemma runs_conseq m s (Q Q' : state -> Prop) : runs m s Q -> (forall s', Q s' -> Q' s') -> runs m s Q'.
Proof. intros [s' [E H]] K. exists s'. auto. Qed.

Lemma removes_ok rs : forall l, (forall x, cn x rs <= cn x l) -> exists l', removes rs l = Some l'.
Proof.
  induction rs as [|r t IH]; intros l H; simpl; [eauto|].
  assert (Hin : In r l).
  { apply cn_in. specialize (H r). rewrite cn_cons, Nat.eqb_refl in H. lia. }
  destruct (in_remove1 r l Hin) as [l1 R1]. rewrite R1. apply IH. intros x.
  pose proof (remove1_cn _ _ _ R1 x) as Q. specialize (H x). rewrite cn_cons in H.
  destruct (Nat.eqb r x); lia.
Qed.

Lemma runs_addref o s (Q : state -> Prop) : G s -> live (hp s) o ->
  (forall h' lg',
     G (with_hand (with_hp s h' (files s) lg') (o :: hand s)) ->
     grow (hp s) h' ->
     Q (with_hand (with_hp s h' (files s) lg') (o :: hand s))) ->
  runs (addref o) s Q.
Proof.
  intros [I [T R]] L K. destruct (live_has _ _ L) as [ob [Ho Ec]].
  unfold runs. assert (E : exists n, o_cnt ob = S n) by (destruct (o_cnt ob); [lia|eauto]).
  destruct E as [n En]. eexists. split.
  - unfold addref. rewrite Ho, En. reflexivity.
  - apply K.
    + split; [|split].
      * apply (pres_addref o s); auto. unfold addref. rewrite Ho, En. reflexivity.
      * simpl. eapply Ty_upd; eauto. eapply ty_obj_same; [| | |apply (T o ob Ho)]; reflexivity.
      * eapply RootsTy_ext; [| | |exact R]; simpl; auto.
        eapply kext_upd; eauto.
    + eapply grow_upd; eauto. simpl. lia.
Qed.

Lemma runs_oaddref x s (Q : state -> Prop) : G s -> alllive (hp s) (olist x) ->
  (forall h' lg',
     G (with_hand (with_hp s h' (files s) lg') (olist x ++ hand s)) ->
     grow (hp s) h' ->
     Q (with_hand (with_hp s h' (files s) lg') (olist x ++ hand s))) ->
  runs (whenS x addref) s Q.
Proof.
  intros HG L K. destruct x as [o|]; simpl.
  - apply runs_addref; auto. apply L. left. reflexivity.
  - apply runs_ret. destruct s. apply K; auto. apply grow_refl.
Qed.

Lemma runs_decref o s (Q : state -> Prop) : G s -> In o (hand s) ->
  (forall h' fs' l' lg',
     G (with_hand (with_hp s h' fs' lg') l') ->
     dec (hp s) h' -> hsplit (hand s) [o] l' ->
     Q (with_hand (with_hp s h' fs' lg') l')) ->
  runs (decref o) s Q.
Proof.
  intros [I [T R]] Hin K.
  destruct (decref_of_held_reference_succeeds s o I Hin) as [s' E]. exists s'. split; auto.
  pose proof (pres_decref o s s' I E) as I'. unfold decref in E.
  destruct (remove1 o (hand s)) as [l|] eqn:Rm; [|discriminate].
  destruct (release (S (total (hp s))) [o] (hp s) (files s) (elog s)) as [[[h' fs'] lg']|] eqn:Rl;
    [|discriminate].
  inversion E; subst s'; clear E.
  destruct (release_frame _ _ _ _ _ _ _ _ T Rl) as [T' D].
  apply K; auto.
  - split; [exact I'|split; [exact T'|]].
    eapply RootsTy_ext; [| | |exact R]; simpl; auto. apply dec_kext; auto.
  - intros x. pose proof (remove1_cn _ _ _ Rm x) as Q1. rewrite cn_cons, cn_nil. lia.
Qed.

(* the post-state does not depend on whether there is anything to release: a program is
   walked once whatever its optional references are *)
Lemma runs_odecref x s (Q : state -> Prop) : G s -> hle (olist x) (hand s) ->
  (forall h' fs' l' lg',
     G (with_hand (with_hp s h' fs' lg') l') ->
     dec (hp s) h' -> hsplit (hand s) (olist x) l' ->
     Q (with_hand (with_hp s h' fs' lg') l')) ->
  runs (odecref x) s Q.
Proof.
  intros HG Hle K. destruct x as [o|]; simpl.
  - apply runs_decref; auto. apply cn_in. specialize (Hle o). simpl in Hle.
    rewrite cn_cons, Nat.eqb_refl in Hle. lia.
  - apply runs_ret. destruct s. apply K; auto. apply dec_refl. intro x. rewrite cn_nil. reflexivity.
Qed.

Lemma ref_kind_rank ob ob' : o_kind ob <> KFile -> o_kind ob' = ref_kind (o_kind ob) -> rank ob' < rank ob.
Proof.
  unfold rank. intros N E. rewrite E. destruct (o_kind ob), (o_top ob), (o_top ob'); simpl; try lia; congruence.
Qed.

Lemma rank_lt_all_complete h rs n :
  (forall r, In r rs -> exists ob, nth_error h r = Some ob /\ rank ob < n) -> rank_lt_all h rs n = true.
Proof.
  intros H. unfold rank_lt_all. apply forallb_forall. intros r Hin.
  destruct (H r Hin) as [ob [E L]]. rewrite E. apply Nat.ltb_lt. exact L.
Qed.

(* a new object *)
Lemma runs_alloc_k k top rs ks file cont s (Q : state -> Prop) : G s ->
  hle (rs ++ ks) (hand s) ->
  (k <> KFile \/ rs = []) ->
  allk (hp s) rs (ref_kind k) ->
  (ks = [] \/ (top = true /\ (k = KFooter \/ k = KStack))) ->
  allhas (hp s) ks k false ->
  (k = KStack -> length rs <= 1) ->
  (forall h' l' id,
     G (with_hand (with_hp s h' (files s) (elog s)) (id :: l')) ->
     grow (hp s) h' -> has h' id k top -> hsplit (hand s) (rs ++ ks) l' ->
     runs (cont id) (with_hand (with_hp s h' (files s) (elog s)) (id :: l')) Q) ->
  runs (alloc_k k top rs ks file cont) s Q.
Proof.
  intros [I [T R]] Hc Hf Hr Hk Hks Hl K.
  destruct (removes_ok (rs ++ ks) (hand s) Hc) as [l Rm].
  set (ob := mkObj k top 1 rs ks file false).
  assert (RK : rank_lt_all (hp s) (rs ++ ks) (rank ob) = true).
  { apply rank_lt_all_complete. intros r Hin. apply in_app_or in Hin. destruct Hin as [Hin|Hin].
    - destruct (Hr r Hin) as [t [ob' [E [A B]]]]. exists ob'. split; [exact E|].
      apply ref_kind_rank; simpl; auto. destruct Hf as [Hf|Hf]; auto. subst rs. destruct Hin.
    - destruct (Hks r Hin) as [ob' [E [A B]]]. exists ob'. split; [exact E|].
      destruct Hk as [->|[-> Hk]]; [destruct Hin|]. unfold rank. simpl. rewrite A, B.
      destruct Hk as [->| ->]; lia. }
  assert (A : alloc k top rs ks file s =
              Some (with_hand (with_hp s (hp s ++ [ob]) (files s) (elog s)) (length (hp s) :: l))).
  { unfold alloc. fold ob. rewrite Rm, RK. reflexivity. }
  pose proof (grow_snoc (hp s) ob) as Gr.
  assert (HG : G (with_hand (with_hp s (hp s ++ [ob]) (files s) (elog s)) (length (hp s) :: l))).
  { split; [|split].
    - eapply pres_alloc; eauto.
    - simpl. apply Ty_snoc; auto. split; [|split]; simpl.
      + intros r Hin. split; auto. destruct Hf as [Hf|Hf]; auto. subst rs. destruct Hin.
      + intros c Hin. split; auto. destruct Hk as [->|[_ Hk]]; [destruct Hin|auto].
      + exact Hl.
    - eapply RootsTy_ext; [| | |exact R]; simpl; auto. apply grow_kext; auto. }
  destruct (K (hp s ++ [ob]) l (length (hp s)) HG Gr) as [s' [E H]].
  - exists ob. split; [|auto]. rewrite nth_error_app2 by lia. rewrite Nat.sub_diag. reflexivity.
  - intros x. apply (removes_cn _ _ _ Rm x).
  - exists s'. split; auto. unfold alloc_k, rd, fresh, bind. rewrite A. exact E.
Qed.

Lemma root_of_in (r : regfile) sl o : r sl = Some o -> In o (root_of r).
Proof.
  intros E. unfold root_of. apply in_flat_map. exists sl. split.
  - destruct sl; simpl; auto 12.
  - rewrite E. simpl. auto.
Qed.

Lemma G_frame s s' : hp s' = hp s -> regs s' = regs s -> handles s' = handles s ->
  hand s' = hand s -> leaked s' = leaked s -> G s -> G s'.
Proof.
  intros E1 E2 E3 E4 E5 [I [T R]]. unfold G, Inv, RootsTy, roots in *.
  rewrite E1, E2, E3, E4, E5. auto.
Qed.

Lemma runs_put sl o s (Q : state -> Prop) : G s -> regs s sl = None -> In o (hand s) ->
  hask (hp s) o (slot_kind sl) ->
  (forall l',
     G (mkState (hp s) (files s) (rset (regs s) sl (Some o)) (handles s) l' (leaked s) (elog s) (ct s)) ->
     hsplit (hand s) [o] l' ->
     Q (mkState (hp s) (files s) (rset (regs s) sl (Some o)) (handles s) l' (leaked s) (elog s) (ct s))) ->
  runs (put sl o) s Q.
Proof.
  intros [I [T R]] En Hin Hk K. destruct (in_remove1 o _ Hin) as [l Rm].
  assert (P : put sl o s = Some (mkState (hp s) (files s) (rset (regs s) sl (Some o)) (handles s) l
                                         (leaked s) (elog s) (ct s))).
  { unfold put. rewrite En, Rm. reflexivity. }
  eexists. split; [exact P|]. apply K.
  - split; [|split]; auto.
    + eapply pres_put; eauto.
    + eapply RootsTy_ext; [| | |exact R]; simpl; auto. apply kext_refl.
      intros sl' o'. unfold rset. destruct (slot_eqb sl sl') eqn:Q1; auto.
      intros X. inversion X; subst. right. apply slot_eqb_eq in Q1. subst. exact Hk.
  - intros x. pose proof (remove1_cn _ _ _ Rm x) as Q1. rewrite cn_cons, cn_nil. lia.
Qed.

Lemma runs_take sl x s (Q : state -> Prop) : G s -> regs s sl = x ->
  (G (mkState (hp s) (files s) (rset (regs s) sl None) (handles s)
              (olist x ++ hand s) (leaked s) (elog s) (ct s)) ->
   Q (mkState (hp s) (files s) (rset (regs s) sl None) (handles s)
              (olist x ++ hand s) (leaked s) (elog s) (ct s))) ->
  runs (take sl) s Q.
Proof.
  intros [I [T R]] <- K. eexists. split; [reflexivity|]. apply K. split; [|split]; auto.
  - eapply pres_take; eauto. reflexivity.
  - eapply RootsTy_ext; [| | |exact R]; simpl; auto. apply kext_refl.
    intros sl' o'. unfold rset. destruct (slot_eqb sl sl'); auto. discriminate.
Qed.

Lemma runs_pushh hd s (Q : state -> Prop) : G s -> hle (hrefs hd) (hand s) ->
  handle_ty (hp s) hd ->
  (forall l',
     G (mkState (hp s) (files s) (regs s) (handles s ++ [hd]) l' (leaked s) (elog s) (ct s)) ->
     hsplit (hand s) (hrefs hd) l' ->
     Q (mkState (hp s) (files s) (regs s) (handles s ++ [hd]) l' (leaked s) (elog s) (ct s))) ->
  runs (pushh hd) s Q.
Proof.
  intros [I [T R]] Hc Hk K. destruct (removes_ok _ _ Hc) as [l Rm].
  assert (P : pushh hd s = Some (mkState (hp s) (files s) (regs s) (handles s ++ [hd]) l
                                         (leaked s) (elog s) (ct s))).
  { unfold pushh. rewrite Rm. reflexivity. }
  eexists. split; [exact P|]. apply K.
  - split; [|split]; auto.
    + eapply pres_pushh; eauto.
    + eapply RootsTy_ext; [| | |exact R]; simpl; auto. apply kext_refl.
      intros hd' Hin. apply in_app_or in Hin. destruct Hin as [Hin|[<-|[]]]; auto.
  - intros x. apply (removes_cn _ _ _ Rm x).
Qed.

Lemma in_del_nth {A} (x : A) l : forall i, In x (del_nth i l) -> In x l.
Proof.
  induction l as [|y r IH]; intros [|i] H; simpl in *; auto. destruct H as [H|H]; eauto.
Qed.

Lemma runs_poph i hd s (Q : state -> Prop) : G s -> nth_error (handles s) i = Some hd ->
  (G (mkState (hp s) (files s) (regs s) (del_nth i (handles s)) (hrefs hd ++ hand s)
              (leaked s) (elog s) (ct s)) ->
   Q (mkState (hp s) (files s) (regs s) (del_nth i (handles s)) (hrefs hd ++ hand s)
              (leaked s) (elog s) (ct s))) ->
  runs (poph i) s Q.
Proof.
  intros [I [T R]] E K.
  assert (P : poph i s = Some (mkState (hp s) (files s) (regs s) (del_nth i (handles s))
                                       (hrefs hd ++ hand s) (leaked s) (elog s) (ct s))).
  { unfold poph. rewrite E. reflexivity. }
  eexists. split; [exact P|]. apply K. split; [|split]; auto.
  - eapply pres_poph; eauto.
  - eapply RootsTy_ext; [| | |exact R]; simpl; auto. apply kext_refl.
    intros hd' Hin. left. eapply in_del_nth; eauto.
Qed.

Lemma runs_set_ctl f s (Q : state -> Prop) : G s ->
  (G (with_ct s (f (ct s))) -> Q (with_ct s (f (ct s)))) -> runs (set_ctl f) s Q.
Proof.
  intros HG K. eexists. split; [reflexivity|]. apply K. eapply G_frame; [..|exact HG]; reflexivity.
Qed.
Lemma runs_unlog s (Q : state -> Prop) : G s ->
  (forall lg, G (with_hp s (hp s) (files s) lg) ->
              Q (with_hp s (hp s) (files s) lg)) ->
  runs unlog s Q.
Proof.
  intros HG K. eexists. split; [reflexivity|]. apply K. eapply G_frame; [..|exact HG]; reflexivity.
Qed.
Lemma runs_bump_file s (Q : state -> Prop) : G s ->
  (forall fs c, copen c = copen (ct s) -> sopen c = sopen (ct s) -> mph c = mph (ct s) ->
                pph c = pph (ct s) -> pbase c = pbase (ct s) -> nch c = nch (ct s) -> inc c = inc (ct s) ->
     G (mkState (hp s) fs (regs s) (handles s) (hand s) (leaked s) (elog s) c) ->
     Q (mkState (hp s) fs (regs s) (handles s) (hand s) (leaked s) (elog s) c)) ->
  runs bump_file s Q.
Proof.
  intros HG K. eexists. split; [reflexivity|]. apply K; try reflexivity.
  eapply G_frame; [..|exact HG]; reflexivity.
Qed.
Lemma runs_finish s (Q : state -> Prop) : hand s = [] -> Q s -> runs finish s Q.
Proof. intros E H. exists s. unfold finish. rewrite E. auto. Qed.
Lemma runs_check b s (Q : state -> Prop) : b s = true -> Q s -> runs (check b) s Q.
Proof. intros E H. exists s. unfold check. rewrite E. auto. Qed.

(* the plain field updates setrm, settag *)
Lemma runs_retag (m : M) (f : obj -> obj) o s (Q : state -> Prop) :
  (forall st, m st = match nth_error (hp st) o with
                     | Some ob => Some (with_hp st (upd o (f ob) (hp st)) (files st) (elog st))
                     | None => None
                     end) ->
  preserves m ->
  (forall ob, o_kind (f ob) = o_kind ob /\ o_top (f ob) = o_top ob /\ o_cnt (f ob) = o_cnt ob /\
              o_refs (f ob) = o_refs ob /\ o_kids (f ob) = o_kids ob) ->
  G s -> (exists ob, nth_error (hp s) o = Some ob) ->
  (forall h', G (with_hp s h' (files s) (elog s)) ->
              grow (hp s) h' ->
              Q (with_hp s h' (files s) (elog s))) ->
  runs m s Q.
Proof.
  intros Em P F [I [T R]] [ob Ho] K. destruct (F ob) as [Fk [Ft [Fc [Fr Fd]]]].
  assert (E : m s = Some (with_hp s (upd o (f ob) (hp s)) (files s) (elog s))) by (rewrite Em, Ho; reflexivity).
  eexists. split; [exact E|]. apply K.
  - split; [|split].
    + exact (P s _ I E).
    + simpl. eapply Ty_upd; eauto. eapply ty_obj_same; [| | |apply (T o ob Ho)]; assumption.
    + eapply RootsTy_ext; [| | |exact R]; simpl; auto. eapply kext_upd; eauto.
  - eapply grow_upd; eauto. rewrite Fc. apply le_n.
Qed.

Lemma runs_osetrm x k s (Q : state -> Prop) : G s -> okind (hp s) x k ->
  (forall h', G (with_hp s h' (files s) (elog s)) ->
              grow (hp s) h' ->
              Q (with_hp s h' (files s) (elog s))) ->
  runs (whenS x setrm) s Q.
Proof.
  intros HG E K. destruct x as [o|]; simpl.
  - exact (runs_retag (setrm o) set_rm o s Q (fun _ => eq_refl) (pres_setrm o)
             (fun _ => ltac:(repeat split)) HG (hask_exists _ _ _ E) K).
  - apply runs_ret. destruct s. apply K; auto. apply grow_refl.
Qed.

(* hand-over re-pointing the lower level of a stack *)
Lemma runs_setrefs a rs s (Q : state -> Prop) : G s -> live (hp s) a -> hask (hp s) a KStack ->
  hle rs (hand s) -> allk (hp s) rs KWrap ->
  length rs <= 1 ->
  (forall h' l',
     G (with_hand (with_hp s h' (files s) (elog s)) (refs_at (hp s) a ++ l')) ->
     kext (hp s) h' -> (forall o, o <> a -> nth_error h' o = nth_error (hp s) o) ->
     length (refs_at (hp s) a) <= 1 -> hsplit (hand s) rs l' ->
     Q (with_hand (with_hp s h' (files s) (elog s)) (refs_at (hp s) a ++ l'))) ->
  runs (setrefs a rs) s Q.
Proof.
  intros [I [T R]] L [ta [ob0 [Ha0 [Ka Ta]]]] Hc Hr Hl K.
  destruct (live_has _ _ L) as [ob [Ha Ec]]. rewrite Ha in Ha0. inversion Ha0; subst ob0; clear Ha0.
  destruct (removes_ok rs (hand s) Hc) as [l Rm].
  assert (E : exists n, o_cnt ob = S n) by (destruct (o_cnt ob); [lia|eauto]). destruct E as [n En].
  assert (RK : rank_lt_all (hp s) rs (rank ob) = true).
  { apply rank_lt_all_complete. intros r Hin.
    destruct (Hr r Hin) as [t [ob' [E [A B]]]]. exists ob'. split; [exact E|].
    apply ref_kind_rank; rewrite Ka; simpl; auto. discriminate. }
  assert (P : setrefs a rs s = Some (with_hand (with_hp s (upd a (set_refs ob rs) (hp s)) (files s) (elog s)) (o_refs ob ++ l))).
  { unfold setrefs. rewrite Ha, En, Rm, RK. reflexivity. }
  assert (RA : refs_at (hp s) a = o_refs ob) by (unfold refs_at; rewrite Ha; reflexivity).
  exists (with_hand (with_hp s (upd a (set_refs ob rs) (hp s)) (files s) (elog s)) (o_refs ob ++ l)).
  split; [exact P|]. rewrite <- RA. apply K.
  - rewrite RA. split; [|split].
    + eapply pres_setrefs; eauto.
    + simpl. eapply Ty_upd; eauto. destruct (T a ob Ha) as [A [B C]]. split; [|split]; simpl; auto.
      intros r Hin. rewrite Ka. split; [discriminate|]. simpl. auto.
    + eapply RootsTy_ext; [| | |exact R]; simpl; auto. eapply kext_upd; eauto.
  - eapply kext_upd; eauto.
  - intros o N. rewrite nth_upd_other by auto. reflexivity.
  - rewrite RA. destruct (T a ob Ha) as [_ [_ C]]. auto.
  - intros x. apply (removes_cn _ _ _ Rm x).
Qed.

Lemma cn_zero_nil (l : list oid) : (forall x, cn x l = 0) -> l = [].
Proof.
  destruct l as [|a r]; auto. intros H. specialize (H a). rewrite cn_cons, Nat.eqb_refl in H. lia.
Qed.

(* what a (live) object holds *)
Definition holds (h : heap) (o : oid) (rs ks : list oid) : Prop :=
  exists ob, nth_error h o = Some ob /\ o_refs ob = rs /\ o_kids ob = ks.

Lemma allk_kext h h' l k : kext h h' -> allk h l k -> allk h' l k.
Proof. intros K A c Hc. eapply hask_kext; eauto. Qed.
Lemma allhas_kext h h' l k t : kext h h' -> allhas h l k t -> allhas h' l k t.
Proof. intros K A c Hc. eapply has_kext; eauto. Qed.
Lemma alllive_grow h h' l : grow h h' -> alllive h l -> alllive h' l.
Proof. intros K A c Hc. eapply live_grow; eauto. Qed.
Lemma holds_grow h h' o rs ks : grow h h' -> holds h o rs ks -> holds h' o rs ks.
Proof.
  intros K [ob [E [A B]]]. destruct (K o ob E) as [ob' [E' [_ [_ [R [D _]]]]]].
  exists ob'. repeat split; congruence.
Qed.
Lemma holds_dec h h' o rs ks : dec h h' -> live h' o -> holds h o rs ks -> holds h' o rs ks.
Proof.
  intros [_ K] L [ob [E [A B]]]. destruct (K o ob E) as [ob' [E' [_ [_ P]]]].
  unfold live, cnt_of in L. rewrite E' in L. destruct (P L) as [R [D _]].
  exists ob'. repeat split; congruence.
Qed.
Lemma allk_nil h k : allk h [] k. Proof. intros c []. Qed.
Lemma allhas_nil h k t : allhas h [] k t. Proof. intros c []. Qed.
Lemma alllive_nil h : alllive h []. Proof. intros c []. Qed.
Lemma allk_app h a b k : allk h a k -> allk h b k -> allk h (a ++ b) k.
Proof. intros A B c Hc. apply in_app_or in Hc. destruct Hc; auto. Qed.
Lemma allhas_app h a b k t : allhas h a k t -> allhas h b k t -> allhas h (a ++ b) k t.
Proof. intros A B c Hc. apply in_app_or in Hc. destruct Hc; auto. Qed.
Lemma allk_one h o k : hask h o k -> allk h [o] k.
Proof. intros H c [<-|[]]. exact H. Qed.
Lemma allhas_one h o k t : has h o k t -> allhas h [o] k t.
Proof. intros H c [<-|[]]. exact H. Qed.
Lemma allk_olist h x k : okind h x k -> allk h (olist x) k.
Proof. destruct x; simpl; [apply allk_one|intros _; apply allk_nil]. Qed.
Lemma allk_firstn h n l k : allk h l k -> allk h (firstn n l) k.
Proof. intros A c Hc. apply A. eapply In_firstn_in; eauto. Qed.
Lemma alllive_firstn h n l : alllive h l -> alllive h (firstn n l).
Proof. intros A c Hc. apply A. eapply In_firstn_in; eauto. Qed.
Lemma allhas_allk h l k t : allhas h l k t -> allk h l k.
Proof. intros A c Hc. exists t. auto. Qed.

Lemma hask_obj h o k : hask h o k -> forall ob, nth_error h o = Some ob -> o_kind ob = k.
Proof. intros [t [ob' [E [A _]]]] ob E'. congruence. Qed.

Lemma refs_facts s a k : G s -> hask (hp s) a k ->
  allk (hp s) (refs_of a s) (ref_kind k) /\ alllive (hp s) (refs_of a s).
Proof.
  intros HG Ha. pose proof HG as [_ [T _]]. unfold refs_of, refs_at.
  destruct (nth_error (hp s) a) as [ob|] eqn:E.
  - destruct (T a ob E) as [A _]. rewrite <- (hask_obj _ _ _ Ha ob E). split.
    + intros c Hc. apply (A c Hc).
    + intros c Hc. eapply live_ref; eauto. unfold orefs. apply in_or_app. auto.
  - split; intros c [].
Qed.
Lemma kids_facts s a k : G s -> hask (hp s) a k ->
  allhas (hp s) (kids_of a s) k false /\ alllive (hp s) (kids_of a s).
Proof.
  intros HG Ha. pose proof HG as [_ [T _]]. unfold kids_of, kids_at.
  destruct (nth_error (hp s) a) as [ob|] eqn:E.
  - destruct (T a ob E) as [_ [B _]]. rewrite <- (hask_obj _ _ _ Ha ob E). split.
    + intros c Hc. apply (B c Hc).
    + intros c Hc. eapply live_ref; eauto. unfold orefs. apply in_or_app. auto.
  - split; intros c [].
Qed.
Lemma first_ref_facts s a k o : G s -> first_ref a s = Some o -> hask (hp s) a k ->
  hask (hp s) o (ref_kind k) /\ live (hp s) o.
Proof.
  intros HG E Ha. destruct (refs_facts s a k HG Ha) as [A B].
  unfold first_ref in E. unfold refs_of in *. destruct (refs_at (hp s) a) as [|x r]; [discriminate|].
  inversion E; subst. split; [apply A|apply B]; left; reflexivity.
Qed.
Lemma first_ref_olist s a k : G s -> hask (hp s) a k ->
  allk (hp s) (olist (first_ref a s)) (ref_kind k) /\ alllive (hp s) (olist (first_ref a s)).
Proof.
  intros HG Ha. destruct (first_ref a s) as [o|] eqn:E; [|split; intros c []].
  destruct (first_ref_facts s a k o HG E Ha). split; intros c [<-|[]]; assumption.
Qed.
Lemma kid_facts s a k i c : G s -> nth_error (kids_of a s) i = Some c -> hask (hp s) a k ->
  has (hp s) c k false /\ live (hp s) c.
Proof.
  intros HG E Ha. destruct (kids_facts s a k HG Ha) as [A B].
  apply nth_error_In in E. auto.
Qed.
Lemma child_fref_facts s : forall ks fr, G s -> allk (hp s) ks KFooter -> child_fref ks s = Some fr ->
  hask (hp s) fr KFile /\ live (hp s) fr.
Proof.
  induction ks as [|k r IH]; intros fr HG A E; simpl in E; [discriminate|].
  destruct (refs_facts s k KFooter HG (A k (or_introl eq_refl))) as [B _].
  destruct (refs_of k s) as [|m ms] eqn:Er.
  - apply IH; auto. intros c Hc. apply A. right. exact Hc.
  - apply (first_ref_facts s m KMmap fr HG E). apply B. left. reflexivity.
Qed.
Lemma file_ref_facts s f fr : G s -> hask (hp s) f KFooter ->
  match refs_of f s with m :: _ => first_ref m s | [] => child_fref (kids_of f s) s end = Some fr ->
  hask (hp s) fr KFile /\ live (hp s) fr.
Proof.
  intros HG Hf E. destruct (refs_facts s f KFooter HG Hf) as [B _].
  destruct (refs_of f s) as [|m ms] eqn:Er.
  - apply (child_fref_facts s (kids_of f s) fr HG); auto.
    eapply allhas_allk. apply (kids_facts s f KFooter HG Hf).
  - apply (first_ref_facts s m KMmap fr HG E). apply B. left. reflexivity.
Qed.
Lemma file_ref_okind s f : G s -> hask (hp s) f KFooter ->
  okind (hp s) (match refs_of f s with m :: _ => first_ref m s | [] => child_fref (kids_of f s) s end) KFile.
Proof.
  intros HG Hf.
  destruct (match refs_of f s with m :: _ => first_ref m s | [] => child_fref (kids_of f s) s end) eqn:E;
    [|exact I].
  apply (file_ref_facts s f o HG Hf E).
Qed.
Lemma first_file_facts s f fr : G s -> hask (hp s) f KFooter ->
  match refs_of f s with m :: _ => first_ref m s | [] => None end = Some fr ->
  hask (hp s) fr KFile /\ live (hp s) fr.
Proof.
  intros HG Hf E. destruct (refs_facts s f KFooter HG Hf) as [B _].
  destruct (refs_of f s) as [|m ms] eqn:Er; [discriminate|].
  apply (first_ref_facts s m KMmap fr HG E). apply B. left. reflexivity.
Qed.
Lemma reg_facts s sl o : G s -> regs s sl = Some o -> hask (hp s) o (slot_kind sl).
Proof. intros [_ [_ [A _]]] E. eauto. Qed.
Lemma handle_facts s i hd : G s -> nth_error (handles s) i = Some hd -> handle_ty (hp s) hd.
Proof. intros [_ [_ [_ B]]] E. apply B. eapply nth_error_In; eauto. Qed.
Lemma holds_of s a k : G s -> hask (hp s) a k -> holds (hp s) a (refs_of a s) (kids_of a s).
Proof.
  intros _ [t [ob [E _]]]. exists ob. unfold refs_of, kids_of, refs_at, kids_at. rewrite E. auto.
Qed.
Lemma holds_refs s a rs ks : holds (hp s) a rs ks -> refs_of a s = rs /\ kids_of a s = ks.
Proof. intros [ob [E [A B]]]. unfold refs_of, kids_of, refs_at, kids_at. rewrite E. auto. Qed.
Lemma holds_kid s b rs ks c k : G s -> holds (hp s) b rs ks -> In c ks -> hask (hp s) b k ->
  has (hp s) c k false /\ live (hp s) c /\ c <> b.
Proof.
  intros HG [ob [E [A B]]] Hin Hk. pose proof HG as [[_ _ C] [T _]].
  destruct (T b ob E) as [_ [Kd _]]. rewrite B in Kd. destruct (Kd c Hin) as [_ Hc].
  rewrite (hask_obj _ _ _ Hk ob E) in Hc. split; [exact Hc|]. split.
  - eapply live_ref; eauto. unfold orefs. apply in_or_app. right. rewrite B. exact Hin.
  - intros ->. destruct (C b ob b E) as [ob' [E' Lt]].
    { unfold orefs. apply in_or_app. right. rewrite B. exact Hin. }
    rewrite E in E'. inversion E'; subst. lia.
Qed.
Lemma holds_other h h' a b rs ks : (forall o, o <> a -> nth_error h' o = nth_error h o) -> b <> a ->
  holds h b rs ks -> holds h' b rs ks.
Proof. intros F N [ob [E X]]. exists ob. rewrite (F b N). auto. Qed.
Lemma refs_olist s c : G s -> hask (hp s) c KStack -> refs_of c s = olist (first_ref c s).
Proof.
  intros [_ [T _]] [t [ob [E [K _]]]]. unfold first_ref, refs_of, refs_at. rewrite E.
  destruct (T c ob E) as [_ [_ L]]. specialize (L K).
  destruct (o_refs ob) as [|x [|y r]]; simpl in *; auto. lia.
Qed.

Ltac cbnst := cbn [hp files regs handles hand leaked elog ct with_ct with_hp with_hand] in *.

(* the locals are multisets: every fact about them (hsplit, hle, hbal) is taken at the one
   object x the goal asks about, and the rest is linear arithmetic over the counts cn x _ *)
Ltac hand_lia x :=
  repeat match goal with
         | H : hsplit _ _ _ |- _ => specialize (H x)
         | H : hle _ _ |- _ => specialize (H x)
         | H : hbal _ _ _ |- _ => specialize (H x)
         end;
  repeat match goal with
         | H : cn x _ = _ |- _ => revert H
         | H : cn x _ <= _ |- _ => revert H
         | H : cn x _ + _ = _ |- _ => revert H
         end;
  cbn [hrefs olist app];
  repeat (rewrite !cn_app || rewrite !cn_cons || rewrite !cn_nil);
  rewrite ?Nat.eqb_refl; intros; lia.
Ltac hand_le := let x := fresh "x" in unfold hle, hbal, hsplit; intro x; hand_lia x.
Ltac hand_in := match goal with |- In ?o _ => apply cn_in; hand_lia o end.
Ltac hand_nil := first [ reflexivity | apply cn_zero_nil; let x := fresh "x" in intro x; hand_lia x ].
Lemma length_olist {A} (x : option A) : length (olist x) <= 1.
Proof. destruct x; simpl; lia. Qed.

Ltac withG tac :=
  match goal with
  | |- runs _ ?s _ => match goal with HG : G s |- _ => tac HG end
  end.

Ltac in_regs_at sl := apply (root_of_in _ sl); cbn [rset slot_eqb]; solve [ reflexivity | assumption ].
Ltac in_regs o :=
  apply in_or_app; left;
  first [ in_regs_at SFooter | in_regs_at SLL | in_regs_at STop | in_regs_at SMid | in_regs_at SBase
        | in_regs_at SClean | in_regs_at SCached | in_regs_at MMid | in_regs_at MBase | in_regs_at PNext ].
Ltac in_handles o :=
  apply in_or_app; right; apply in_or_app; left;
  match goal with
  | E : nth_error _ _ = Some ?hd |- _ =>
      apply in_flat_map; exists hd; split;
      [ solve [ eapply nth_error_In; exact E | apply in_or_app; left; eapply nth_error_In; exact E ]
      | cbn [hrefs olist app]; simpl; solve [ auto 6 ] ]
  end.
Ltac in_hand o :=
  apply in_or_app; right; apply in_or_app; right; apply in_or_app; left; hand_in.
Ltac in_roots o := first [ solve [in_regs o] | solve [in_handles o] | solve [in_hand o] ].

Ltac live_tac :=
  cbnst;
  first
  [ assumption
  | match goal with A : alllive ?h ?l |- live ?h ?o => apply A; solve [ simpl; auto ] end
  | match goal with
    | HG : G (mkState ?h ?a ?b ?c ?d ?e ?f ?g) |- live ?h ?o =>
        apply (live_root (mkState h a b c d e f g) o HG); unfold roots; cbnst; in_roots o
    | HG : G ?s |- live (hp ?s) ?o =>
        apply (live_root s o HG); unfold roots; cbnst; in_roots o
    end ].

Ltac tr_kext K :=
  repeat match goal with
  | H : has ?h _ _ _ |- _ => match type of K with kext h _ => apply (has_kext _ _ _ _ _ K) in H end
  | H : hask ?h _ _ |- _ => match type of K with kext h _ => apply (hask_kext _ _ _ _ K) in H end
  | H : allk ?h _ _ |- _ => match type of K with kext h _ => apply (allk_kext _ _ _ _ K) in H end
  | H : allhas ?h _ _ _ |- _ => match type of K with kext h _ => apply (allhas_kext _ _ _ _ _ K) in H end
  | H : okind ?h _ _ |- _ => match type of K with kext h _ => apply (okind_kext _ _ _ _ K) in H end
  | H : handle_ty ?h _ |- _ => match type of K with kext h _ => apply (handle_ty_kext _ _ _ K) in H end
  end.
Ltac tr_grow Hg :=
  repeat match goal with
  | H : live ?h _ |- _ => match type of Hg with grow h _ => apply (live_grow _ _ _ Hg) in H end
  | H : alllive ?h _ |- _ => match type of Hg with grow h _ => apply (alllive_grow _ _ _ Hg) in H end
  | H : holds ?h _ _ _ |- _ => match type of Hg with grow h _ => apply (holds_grow _ _ _ _ _ Hg) in H end
  end;
  let K := fresh "K" in pose proof (grow_kext _ _ Hg) as K; tr_kext K; clear K.
Ltac tr_dec Hd :=
  repeat match goal with
  | H : holds ?h ?o _ _ |- _ =>
      match type of Hd with dec h _ =>
        apply (holds_dec _ _ _ _ _ Hd) in H; [|solve [live_tac]] end
  end;
  let K := fresh "K" in pose proof (dec_kext _ _ Hd) as K; tr_kext K; clear K.
