(* Sync2StallA.v - no stall for data at rest (Sync2.v): the measure mu_g and, for everything
   that can be dirty, the background step that decreases it.  Sync2Stall.v assembles the
   theorems. *)
From Coq Require Import List Arith Bool Lia.
Import ListNotations.
From Moss Require Import Sync2 Sync2Facts Sync2ProgressA Sync2Progress.

(* measures (they do not depend on the configuration) *)

(* something is dirty: the gauges are non-zero *)
Definition dirty (s : state) : bool := (0 <? z_top s) || z_mid s || z_base s.
(* the gauges are zero: nothing in stackDirtyTop, stackDirtyMid, stackDirtyBase *)
Definition gauges_zero (s : state) : Prop :=
  z_top s = 0 /\ z_mid s = false /\ z_base s = false.

(* persister: steps until it has published the round on stackDirtyBase (weights leave
   room for the wake-up term of a sleeping merger, which counts again after the publish) *)
Definition dPb (s : state) : nat :=
  match z_pp s with
  | PPublish => 3 | PUpdate => 4 | PChk => 5 | PTop | PWoken => 6 | PCloseOut _ => 7
  | _ => 8 end.
(* a sleeping merger that nothing wakes yet: the persister's steps up to its ping *)
Definition wk (s : state) : nat := if wakeable s || z_base s then 0 else dPp s.
(* the dirty-limit wait: the persister's close of the outgoing channel *)
Definition ow (s : state) : nat := if z_oready s then 0 else 1.
(* merger: steps until the hand-over / until the ingest *)
Definition dHo (s : state) : nat :=
  match z_mp s with
  | MHandover => 1 | MMerge => 2 | MIngest => 3 | MDrain => 4
  | MSelect => 5 + wk s | MCheck => 11 | MReply => 12 | MWaitOut _ => 13 + ow s
  | _ => 0 end.
Definition dIn (s : state) : nat :=
  match z_mp s with
  | MIngest => 1 | MDrain => 2 | MSelect => 3 + wk s | MCheck => 9 | MReply => 10
  | MWaitOut _ => 11 + ow s | MHandover => 13 | MMerge => 14
  | _ => 0 end.
(* 10 outweighs what the hand-over adds (dPb <= 8), 40 what the ingest adds (dHo + 10 <= 24) *)
Definition mu_g (s : state) : nat :=
  (if 0 <? z_top s then 40 + dIn s else if z_mid s then dHo s else 0)
  + (if z_mid s then 10 else 0)
  + (if z_base s then dPb s else 0).

Lemma wk_bound s : wk s <= 5.
Proof. unfold wk, dPp. destruct (wakeable s || z_base s), (z_pp s); lia. Qed.
Lemma dIn_bound s : dIn s <= 14.
Proof. unfold dIn, ow. pose proof (wk_bound s). destruct (z_mp s); destruct (z_oready s); lia. Qed.
Lemma dHo_bound s : dHo s <= 14.
Proof. unfold dHo, ow. pose proof (wk_bound s). destruct (z_mp s); destruct (z_oready s); lia. Qed.
Lemma dPb_bound s : dPb s <= 8.
Proof. unfold dPb. destruct (z_pp s); lia. Qed.

Lemma mu_g_bound s : mu_g s <= 72.
Proof.
  unfold mu_g. pose proof (dIn_bound s). pose proof (dHo_bound s). pose proof (dPb_bound s).
  destruct (0 <? z_top s), (z_mid s), (z_base s); lia.
Qed.

(* while a merged stack waits for a free persister, mu_p is the merger's distance to the hand-over *)
Lemma mu_p_dHo s : mu_p s = if negb (z_mid s) || z_base s then 0 else dHo s.
Proof.
  unfold mu_p, dHo, wk, ow. destruct (z_mid s), (z_base s), (z_mp s); cbn [negb orb]; rewrite ?orb_false_r; reflexivity.
Qed.

Section StallA.
Variable c : config.
Hypothesis cap_pos : 1 <= c_cap c.
Hypothesis qcap_pos : 1 <= c_qcap c.

(* no call is made by a background step: "no caller is pending" is stable *)
Lemma bg_keeps_not_pending s l s' :
  step c s l = Some s' -> bg l = true -> ~ pending s -> ~ pending s'.
Proof using cap_pos qcap_pos.
  intros H B NP. apply not_pending_calls. apply not_pending_calls in NP.
  pose proof (bg_calls_le c s l s' H B). lia.
Qed.

Ltac dist_g E := unfold mu_g, dIn, dHo, wk, ow, dPb; zs; rewrite ?E; zs.

(* stackDirtyBase is set: the persister's round is enabled step by step, whatever the
   merger is doing, and ends with the publish *)
Lemma g_base s :
  inv c s -> c_ll c = true -> z_closed s = false -> z_base s = true -> progresses c mu_g s.
Proof.
  intros I Ll Cl B. pose proof (inv_lk c s I) as L.
  destruct (persister_parked c s I) as (NL & PW & PD).
  destruct (z_pp s) as [| | | | | |og| |] eqn:Ep.
  - eapply progress_by; [apply step_LPTop_busy; auto|reflexivity|]. dist_g Ep. rewrite B, !orb_true_r. lia.
  - destruct (PW eq_refl). congruence.
  - eapply progress_by; [apply step_LPTop_busy; auto|reflexivity|]. dist_g Ep. rewrite B, !orb_true_r. lia.
  - eapply progress_by; [apply step_LPChk, Ep|reflexivity|]. rewrite Cl. dist_g Ep. rewrite B, !orb_true_r. lia.
  - eapply progress_by; [apply step_LPUpdOk, Ep|reflexivity|]. dist_g Ep. rewrite B, !orb_true_r. lia.
  - (* the wake-up term of a sleeping merger counts again, with the persister two steps from its ping *)
    eapply progress_by; [apply step_LPPublish; assumption|reflexivity|].
    dist_g Ep. unfold dPp, wakeable; zs. rewrite B, !orb_true_r, !orb_false_r.
    destruct (z_incc s || _), (0 <? z_top s), (z_mid s), (z_mp s); lia.
  - eapply progress_by; [apply (step_LPCloseOut c s og Ep)|reflexivity|].
    assert (O : forall s1, s1 = s \/ s1 = set_oready true s -> mu_g (set_pp PTop s1) < mu_g s).
    { intros s1 [-> | ->]; dist_g Ep; rewrite B, !orb_true_r;
      destruct (0 <? z_top s), (z_mid s), (z_mp s), (z_oready s); lia. }
    destruct og as [g|]; [destruct (z_mp s); try destruct (g =? _)|]; auto.
  - congruence.
  - rewrite PD in Cl by auto. discriminate.
Qed.

(* stackDirtyTop is non-empty and stackDirtyBase empty: the merger is brought to its ingest *)
Lemma g_top s :
  inv c s -> c_ll c = true -> z_closed s = false -> calls s = 0 ->
  z_base s = false -> (0 <? z_top s) = true -> progresses c mu_g s.
Proof.
  intros I Ll Cl NP B T. pose proof (inv_lk c s I) as L.
  pose proof (open_not_exiting c s I Cl) as X.
  destruct (z_mp s) as [| | | | | | |g| |] eqn:E; try discriminate X.
  - eapply progress_by; [apply step_LMReply, E|reflexivity|]. dist_g E. rewrite T, B. lia.
  - eapply progress_by; [apply step_LMCheck; assumption|reflexivity|].
    assert (T0 : (z_top s =? 0) = false) by (apply Nat.eqb_neq; apply Nat.ltb_lt in T; lia).
    rewrite T0. cbn [andb]. dist_g E. rewrite T, B. lia.
  - (* with something in the top the merger's wake-up channel has been closed *)
    assert (Ei : z_incc s = true).
    { destruct (z_incc s) eqn:Ei; [reflexivity|]. unfold calls in NP.
      destruct (asleep_armed c s I E Ei) as [_ T0]; [lia|]. rewrite T0 in T. discriminate. }
    eapply progress_by; [apply step_LMSelInc; assumption|reflexivity|]. dist_g E. rewrite T, B. lia.
  - eapply progress_by; [apply step_LMDrain, E|reflexivity|]. dist_g E. rewrite T, B. lia.
  - eapply progress_by; [apply step_LMIngest; assumption|reflexivity|].
    unfold broadcast_top. dist_g E. rewrite T, B. cbn [Nat.ltb Nat.leb]. destruct (z_mid s); lia.
  - eapply progress_by; [apply step_LMMergeOk; assumption|reflexivity|]. dist_g E. rewrite T, B. lia.
  - destruct (step_LMHandover c s E L) as (s' & St & (F1 & _) & _ & _ & _ & M & H & _).
    eapply progress_by; [exact St|reflexivity|]. pose proof (dPb_bound s').
    unfold hands_over in H. rewrite Ll, B in H. unfold mu_g, dIn, ow. rewrite F1, T, E, B.
    destruct (z_mid s); cbn in H; destruct H as [-> ->]; destruct M as [->|(g & -> & ->)]; lia.
  - destruct (z_oready s) eqn:Er.
    { eapply progress_by; [eapply step_LMOutWake; eassumption|reflexivity|]. dist_g E. rewrite T, B, Er. lia. }
    eapply progress_by; [apply (step_LPCloseOut c s (Some g)), (waitout_closeout c s g); assumption|reflexivity|].
    rewrite E, Nat.eqb_refl. dist_g E. rewrite T, B, Er. lia.
Qed.

(* a merged stack waits with top and base empty: mu_g is mu_p + 10 until the hand-over *)
Lemma g_mid s :
  inv c s -> invK c s -> c_ll c = true -> z_closed s = false -> calls s = 0 ->
  z_base s = false -> z_top s = 0 -> z_mid s = true -> progresses c mu_g s.
Proof.
  intros I K Ll Cl NP B T M.
  destruct (persist_step c cap_pos qcap_pos s I K Ll Cl M B NP) as (l & s' & Bl & St & D & T' & Kp).
  apply (progress_by c mu_g s l s' St Bl). rewrite !mu_p_dHo, M, B in D. cbn [negb orb] in D.
  assert (T0 : z_top s' = 0) by lia. pose proof (dPb_bound s').
  unfold mu_g. rewrite T0, T, M, B. cbn [Nat.ltb Nat.leb].
  destruct Kp as [[M' B']|[M' B']]; rewrite M', B' in *; cbn [negb orb] in D; lia.
Qed.
End StallA.
