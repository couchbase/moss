(* BatchBufFacts.v — proofs about BatchBuf.v (the in-memory batch buffer).

   Main results
     step_entries            one legal call: entries afterwards = entries before ++ what
                             the call contributes (nothing when it is rejected)
     run_entries             every legal call sequence: entries = accepted operations in
                             call order, byte for byte
     fill_read / fill_read_other   what the caller wrote is what the handle reads; other
                             disjoint handles are not touched
     alloc_handle_fresh      a new handle is live, reads zeros, and is disjoint from every
                             registered range and every live handle
     rejected_alloc_call_unchanged / rejected_plain_keeps_bytes   what a rejected call
                             leaves: nothing, resp. its bytes in buf
     hrun_entries            batches built from plain and Alloc-built operations in any
                             mixture: entries = the operations that returned nil
     sort_batch_entries      after sort: entries = Segment.sort_seg of the entries before
     batch_find_start_spec / batch_find_key_spec / batch_get_spec   the binary searches of
                             a sorted batch = the linear specifications
     stale_handle_refuted    a handle obtained from Alloc of this batch and filled before
                             use registers a WRONG entry once a plain operation has outgrown
                             the capacity in between (finding; reproduced on the Go code)
     detached_value_refuted  AllocSet with a value handle that does not follow the key
                             handle registers other bytes as the value (no error) *)
From Coq Require Import ZArith NArith List Bool Lia ZifyN ZifyNat ZifyBool.
From Moss Require Import Bytes BytesFacts Segment SegmentFacts Codec CodecFacts
  FileFormat FileFormatFacts BatchBuf.
From Moss Require Index IndexFacts.
Open Scope N_scope.

Arguments N.mul : simpl never.
Arguments N.add : simpl never.
Arguments N.sub : simpl never.
Arguments N.div : simpl never.
Arguments N.modulo : simpl never.
Arguments N.pow : simpl never.

Lemma blen_write buf lo d : lo + blen d <= blen buf -> blen (write_bytes buf lo d) = blen buf.
Proof.
  intro H. unfold write_bytes. rewrite !blen_app, blen_take, blen_drop by lia. lia.
Qed.

(* an in-place write does not disturb a slice outside the written range *)
Lemma subs_write buf lo d a b :
  lo + blen d <= blen buf -> a <= b -> b <= blen buf -> (b <= lo \/ lo + blen d <= a) ->
  subs (write_bytes buf lo d) a b = subs buf a b.
Proof.
  intros Hin Hab Hb [Hd|Hd]; unfold write_bytes.
  - transitivity (subs (take lo buf ++ drop lo buf) a b); [|now rewrite take_drop].
    rewrite !subs_app_l by (rewrite ?blen_take; lia). reflexivity.
  - unfold subs. f_equal.
    rewrite app_assoc, drop_app_ge, drop_drop; rewrite blen_app, blen_take by lia; [f_equal|]; lia.
Qed.

(* the written range reads back *)
Lemma subs_write_same buf lo d :
  lo + blen d <= blen buf -> subs (write_bytes buf lo d) lo (lo + blen d) = d.
Proof.
  intro H. pose proof (subs_mid (take lo buf) d (drop (lo + blen d) buf)) as E.
  rewrite blen_take in E by lia. exact E.
Qed.

Lemma sub_checked_some b lo hi x :
  sub_checked b lo hi = Some x <-> lo <= hi /\ hi <= blen b /\ x = subs b lo hi.
Proof.
  unfold sub_checked.
  destruct (N.leb_spec lo hi); destruct (N.leb_spec hi (blen b)); cbn [andb]; split;
    try discriminate; try (intros [= <-]; auto); try (intros (? & ? & ?); lia).
  intros (_ & _ & ->). reflexivity.
Qed.

Lemma list_ind2 {A} (P : list A -> Prop) :
  P [] -> (forall a, P [a]) -> (forall a b r, P r -> P (a :: b :: r)) -> forall l, P l.
Proof.
  intros H0 H1 H2. fix IH 1. intros [|a [|b r]]; [exact H0 | apply H1 | apply H2, IH].
Qed.

Lemma pairs_flat ps : pairs_of (flat ps) = ps.
Proof. induction ps as [|[a b] r IH]; [reflexivity|]. cbn [flat pairs_of]. now rewrite IH. Qed.

Lemma pairs_flat_app ps w s : pairs_of (flat ps ++ [w; s]) = ps ++ [(w, s)].
Proof.
  induction ps as [|[a b] r IH]; [reflexivity|].
  cbn [flat app pairs_of]. now rewrite IH.
Qed.

Lemma flat_app ps qs : flat (ps ++ qs) = flat ps ++ flat qs.
Proof.
  induction ps as [|[a b] r IH]; [reflexivity|]. cbn [flat app]. now rewrite IH.
Qed.

Lemma pairs_of_snoc ws w s :
  flat (pairs_of ws) = ws -> pairs_of (ws ++ [w; s]) = pairs_of ws ++ [(w, s)].
Proof. intro H. rewrite <- H at 1. apply pairs_flat_app. Qed.

Lemma flat_pairs_snoc ws w s :
  flat (pairs_of ws) = ws -> flat (pairs_of (ws ++ [w; s])) = ws ++ [w; s].
Proof.
  intro H. rewrite pairs_of_snoc by assumption. rewrite flat_app, H. reflexivity.
Qed.

Definition dec (buf : bytes) (p : N * N) : option entry :=
  get_operation_key_val buf (fst p) (snd p).

Definition decodes (buf : bytes) : list (N * N) -> segment -> Prop :=
  Forall2 (fun p e => dec buf p = Some e).

Lemma entries_of_decodes buf ws : forall es,
  entries_of ws buf = Some es <-> decodes buf (pairs_of ws) es.
Proof.
  induction ws as [|a|a b r IH] using list_ind2; intro es; cbn [entries_of pairs_of].
  1, 2: split; [intros [= <-]; constructor | inversion 1; reflexivity].
  change (get_operation_key_val buf a b) with (dec buf (a, b)).
  destruct (dec buf (a, b)) as [e|] eqn:Ep; [destruct (entries_of r buf) as [s|]|].
  - split; [intros [= <-]; constructor; [exact Ep | now apply IH] |].
    inversion 1 as [|? e' ? s' He Hs]; subst. apply IH in Hs. rewrite Ep in He.
    injection He as <-. injection Hs as <-. reflexivity.
  - split; [discriminate|]. inversion 1 as [|? ? ? s' _ Hs]; subst.
    apply IH in Hs. discriminate.
  - split; [discriminate|]. inversion 1; congruence.
Qed.

Lemma entries_decodes st es :
  entries st = Some es <-> decodes (b_buf st) (pairs_of (b_kvs st)) es.
Proof. apply entries_of_decodes. Qed.

Lemma decodes_ext buf buf' ps es :
  (forall p e, In p ps -> dec buf p = Some e -> dec buf' p = Some e) ->
  decodes buf ps es -> decodes buf' ps es.
Proof.
  intros Hx H. induction H as [|p e ps es Hp _ IH]; constructor.
  - apply Hx; [now left | exact Hp].
  - apply IH. intros q e' Hq. apply Hx. now right.
Qed.

Lemma dec_some buf p e :
  dec buf p = Some e <->
  let '(code, kl, vl) := decode (fst p) in
  snd p + kl + vl <= blen buf /\
  exists o, mk_op code (subs buf (snd p + kl) (snd p + kl + vl)) = Some o /\
            e = (subs buf (snd p) (snd p + kl), o).
Proof.
  unfold dec, get_operation_key_val, sub_checked.
  destruct (decode (fst p)) as [[code kl] vl].
  destruct (N.leb_spec (snd p) (snd p + kl)); [|lia].
  destruct (N.leb_spec (snd p + kl) (snd p + kl + vl)); [|lia].
  destruct (N.leb_spec (snd p + kl + vl) (blen buf)).
  - destruct (N.leb_spec (snd p + kl) (blen buf)); [|lia]. cbn [andb].
    destruct (mk_op code _) as [o|]; split.
    + intros [= <-]. eauto.
    + intros (_ & o' & [= <-] & ->). reflexivity.
    + discriminate.
    + intros (_ & o' & [=] & _).
  - rewrite andb_false_r.
    split; [destruct (_ && _); discriminate | intros [? _]; lia].
Qed.

(* a decodable pair lies inside buf *)
Lemma dec_range buf p e : dec buf p = Some e ->
  fst (pair_range p) <= snd (pair_range p) /\ snd (pair_range p) <= blen buf.
Proof.
  intros H%dec_some. unfold pair_range.
  destruct (decode (fst p)) as [[code kl] vl]. cbn [fst snd]. lia.
Qed.

Lemma dec_key buf p k o : dec buf p = Some (k, o) -> pair_key buf p = k.
Proof.
  intros H%dec_some. unfold pair_key.
  destruct (decode (fst p)) as [[code kl] vl]. destruct H as (_ & o' & _ & [= -> _]).
  reflexivity.
Qed.

Lemma dec_frame buf buf' p e :
  dec buf p = Some e -> snd (pair_range p) <= blen buf' ->
  (forall a b, fst (pair_range p) <= a -> a <= b -> b <= snd (pair_range p) ->
               subs buf' a b = subs buf a b) ->
  dec buf' p = Some e.
Proof.
  intros H%dec_some Hlen Hsame. apply dec_some. unfold pair_range in *.
  destruct (decode (fst p)) as [[code kl] vl]. cbn [fst snd] in *.
  rewrite !Hsame by lia. tauto.
Qed.

Lemma dec_app buf x p e : dec buf p = Some e -> dec (buf ++ x) p = Some e.
Proof.
  intro H. destruct (dec_range _ _ _ H). apply (dec_frame buf); trivial.
  - rewrite blen_app. lia.
  - intros a b _ Hab Hb. apply subs_app_l; lia.
Qed.

Lemma dec_write buf lo d p e :
  lo + blen d <= blen buf -> range_disjoint (pair_range p) lo (lo + blen d) ->
  dec buf p = Some e -> dec (write_bytes buf lo d) p = Some e.
Proof.
  intros Hin Hd H. destruct (dec_range _ _ _ H). apply (dec_frame buf); trivial.
  - rewrite blen_write by exact Hin. lia.
  - intros a b Ha Hab Hb. unfold range_disjoint in Hd. apply subs_write; lia.
Qed.

(* every registered range of a decodable batch lies inside buf *)
Lemma ranges_inside st es : entries st = Some es ->
  Forall (fun r => fst r <= snd r /\ snd r <= blen (b_buf st)) (ranges st).
Proof.
  intros H%entries_decodes. unfold ranges.
  induction H as [|p e ps es Hp _ IH]; constructor; [exact (dec_range _ _ _ Hp) | exact IH].
Qed.

Lemma mutate_ex_cases st code ks kl vl :
  (guard_ok kl vl = true /\ kl <= maxKeyLength /\ vl <= maxValLength /\
   mutate_ex st code ks kl vl =
     (mkB (b_buf st) (b_cap st) (b_gen st)
          (b_kvs st ++ [encode code kl vl; u64 (key_start_rule ks kl vl)]), ROk))
  \/ (guard_ok kl vl = false /\ exists e, mutate_ex st code ks kl vl = (st, RErr e)).
Proof.
  unfold guard_ok, mutate_ex.
  destruct (mutate_guard kl vl) as [[|]|] eqn:E; [right; eauto..|left].
  apply mutate_guard_none in E. tauto.
Qed.

Lemma mutate_ex_frame st code ks kl vl :
  b_buf (fst (mutate_ex st code ks kl vl)) = b_buf st /\
  b_cap (fst (mutate_ex st code ks kl vl)) = b_cap st /\
  b_gen (fst (mutate_ex st code ks kl vl)) = b_gen st.
Proof.
  destruct (mutate_ex_cases st code ks kl vl) as [(_ & _ & _ & ->)|(_ & e & ->)]; auto.
Qed.

Lemma mutate_ex_wf st code ks kl vl : wf st -> wf (fst (mutate_ex st code ks kl vl)).
Proof.
  intros (Hc & Hi & Hf).
  destruct (mutate_ex_cases st code ks kl vl) as [(_ & _ & _ & ->)|(_ & e & ->)];
    repeat split; trivial.
  now apply flat_pairs_snoc.
Qed.

Lemma mutate_ex_snd {A} (x : list A) st c ks kl vl :
  (if guard_ok kl vl then x else []) =
  match snd (mutate_ex st c ks kl vl) with ROk => x | _ => [] end.
Proof.
  destruct (mutate_ex_cases st c ks kl vl) as [(-> & _ & _ & ->)|(-> & e & ->)]; reflexivity.
Qed.

Lemma subs_empty b lo hi : hi <= lo -> subs b lo hi = [].
Proof. intro H. unfold subs. replace (hi - lo) with 0 by lia. reflexivity. Qed.

(* mutateEx registers the entry that getOperationKeyVal will read at keyStart, or
   nothing when the guard rejects it *)
Lemma register_entry st code ks kl vl k o es :
  wf st -> ks + kl + vl <= blen (b_buf st) -> valid_op_code code ->
  subs (b_buf st) ks (ks + kl) = k ->
  mk_op code (subs (b_buf st) (ks + kl) (ks + kl + vl)) = Some o ->
  entries st = Some es ->
  entries (fst (mutate_ex st code ks kl vl)) =
    Some (es ++ if guard_ok kl vl then [(k, o)] else []).
Proof.
  intros (Hc & Hi & Hf) Hin Hcode <- Ho He.
  destruct (mutate_ex_cases st code ks kl vl) as [(-> & Hk & Hv & ->)|(-> & e & ->)];
    cbn [fst]; [|now rewrite app_nil_r].
  apply entries_decodes. cbn [b_buf b_kvs]. rewrite pairs_of_snoc by assumption.
  apply Forall2_app; [now apply entries_decodes|]. constructor; [|constructor].
  apply dec_some. cbn [fst snd]. rewrite C19_word_roundtrip by assumption.
  unfold key_start_rule. destruct ((kl =? 0) && (vl =? 0)) eqn:E.
  - (* keyStart forced to 0: key and value are empty wherever they start *)
    apply andb_true_iff in E as [->%N.eqb_eq ->%N.eqb_eq]. change (u64 0) with 0.
    rewrite !subs_empty in * by lia. split; [lia|eauto].
  - unfold u64. rewrite N.mod_small by (unfold two64; lia). eauto.
Qed.

Lemma append_buf_buf st d oc : b_buf (append_buf st d oc) = b_buf st ++ d.
Proof. unfold append_buf. destruct (_ <=? _); reflexivity. Qed.

Lemma append_buf_kvs st d oc : b_kvs (append_buf st d oc) = b_kvs st.
Proof. unfold append_buf. destruct (_ <=? _); reflexivity. Qed.

Lemma append_buf_wf st d oc : wf st -> fits_int st (blen d) oc -> wf (append_buf st d oc).
Proof.
  intros (Hc & Hi & Hf) Hfit. unfold fits_int in Hfit. unfold wf, append_buf.
  destruct (N.leb_spec (blen (b_buf st ++ d)) (b_cap st)) as [H|H]; cbn [b_buf b_cap b_kvs];
    rewrite ?blen_app in *; repeat split; try assumption; lia.
Qed.

Lemma append_buf_entries st d oc es : entries st = Some es ->
  entries (append_buf st d oc) = Some es.
Proof.
  rewrite !entries_decodes, append_buf_buf, append_buf_kvs.
  apply decodes_ext. intros p e _. apply dec_app.
Qed.

Lemma mutate_wf st code k v oc : wf st -> fits_int st (blen k + blen v) oc ->
  wf (fst (mutate st code k v oc)).
Proof.
  intros Hw Hfit. apply mutate_ex_wf, append_buf_wf; [assumption | now rewrite blen_app].
Qed.

Lemma plain_entry_entries st k o oc es :
  wf st -> fits_int st (blen k + blen (op_val o)) oc -> entries st = Some es ->
  entries (fst (plain_entry st k o oc)) =
    Some (es ++ if guard_ok (blen k) (blen (op_val o)) then [(k, o)] else []).
Proof.
  intros Hw Hfit He. apply register_entry; rewrite ?append_buf_buf.
  - apply append_buf_wf; [assumption | now rewrite blen_app].
  - rewrite !blen_app. lia.
  - apply op_code_valid.
  - apply subs_mid.
  - pose proof (subs_mid (b_buf st ++ k) (op_val o) []) as E.
    rewrite app_nil_r, blen_app, <- app_assoc in E. rewrite E. apply mk_op_ok.
  - now apply append_buf_entries.
Qed.

Lemma alloc_entries st n es : entries st = Some es -> entries (fst (alloc st n)) = Some es.
Proof.
  unfold alloc. destruct (_ <? _); cbn [fst]; [auto|].
  rewrite !entries_decodes. cbn [b_buf b_kvs].
  apply decodes_ext. intros p e _. apply dec_app.
Qed.

Lemma alloc_wf st n : wf st -> wf (fst (alloc st n)).
Proof.
  intros (Hc & Hi & Hf). unfold alloc.
  destruct (N.ltb_spec (b_cap st - blen (b_buf st)) n); cbn [fst]; unfold wf;
    cbn [b_buf b_cap b_kvs]; rewrite ?blen_app, ?zeros_blen; repeat split; try assumption; lia.
Qed.

Lemma fill_cases st h d :
  let d' := take (h_len h) d in
  (h_gen h = b_gen st /\ h_lo h + blen d' <= blen (b_buf st) /\
   fill st h d = mkB (write_bytes (b_buf st) (h_lo h) d') (b_cap st) (b_gen st) (b_kvs st))
  \/ ((h_gen h <> b_gen st \/ blen (b_buf st) < h_lo h + blen d') /\ fill st h d = st).
Proof.
  unfold fill. destruct (N.eqb_spec (h_gen h) (b_gen st)); [|now right; auto].
  destruct (N.leb_spec (h_lo h + blen (take (h_len h) d)) (blen (b_buf st))); cbn [andb]; auto.
Qed.

Lemma fill_shape st h d :
  b_gen (fill st h d) = b_gen st /\ b_cap (fill st h d) = b_cap st /\
  b_kvs (fill st h d) = b_kvs st /\ blen (b_buf (fill st h d)) = blen (b_buf st).
Proof.
  destruct (fill_cases st h d) as [(_ & Hin & ->)|[_ ->]]; [|auto].
  cbn [b_gen b_cap b_kvs b_buf]. rewrite blen_write by assumption. auto.
Qed.

Lemma fill_wf st h d : wf st -> wf (fill st h d).
Proof.
  destruct (fill_shape st h d) as (_ & Ec & Ek & El). unfold wf. now rewrite Ec, Ek, El.
Qed.

Lemma fill_live st h d h0 : h_live st h0 -> h_live (fill st h d) h0.
Proof.
  destruct (fill_shape st h d) as (Eg & Ec & _ & El).
  unfold h_live. rewrite Eg, Ec, El. auto.
Qed.

Lemma fill_entries st h d es :
  call_legal st (CFill h d) -> entries st = Some es -> entries (fill st h d) = Some es.
Proof.
  intros Hl He. destruct (fill_cases st h d) as [(Eg & Hin & ->)|[_ ->]]; [|exact He].
  destruct Hl as [Hl|[(_ & _ & Hlo & Hhi) Hd]]; [contradiction|].
  rewrite entries_decodes in *. cbn [b_buf b_kvs].
  revert He. apply decodes_ext. intros p e Hp. apply dec_write; [assumption|].
  unfold ranges in Hd. rewrite Forall_forall in Hd.
  specialize (Hd (pair_range p) (in_map _ _ _ Hp)).
  pose proof (blen_take_le (h_len h) d). unfold h_len in *.
  unfold range_disjoint in *. lia.
Qed.

Lemma alloc_mutate_entries st o kh vh es :
  wf st -> h_live st kh -> val_follows st kh vh -> op_val o = read st vh ->
  entries st = Some es ->
  entries (fst (alloc_mutate st (op_code o) kh vh)) =
    Some (es ++ if guard_ok (h_len kh) (h_len vh) then [(read st kh, o)] else []).
Proof.
  intros Hw (Hg & Ha & Hlo & Hhi) Hv Ho He. unfold alloc_mutate.
  pose proof Hw as (Hc & Hi & Hf).
  replace (b_cap st - h_cap kh) with (h_lo kh) by (unfold h_cap; rewrite Ha; lia).
  unfold val_follows, read, h_live, h_len in *. apply register_entry; trivial.
  - destruct Hv as [Hz|[(_ & _ & Hvlo & Hvhi) Hadj]]; lia.
  - apply op_code_valid.
  - f_equal. lia.
  - (* the value is taken to start where the key ends *)
    replace (subs (b_buf st) _ _) with (subs (b_buf st) (h_lo vh) (h_hi vh));
      [rewrite <- Ho; apply mk_op_ok|].
    destruct Hv as [Hz|[(_ & _ & Hvlo & _) Hadj]];
      [rewrite !subs_empty by lia; reflexivity | f_equal; lia].
Qed.

Lemma read_nil st : read st h_nil = [].
Proof. reflexivity. Qed.

Theorem step_wf st c : wf st -> call_legal st c -> wf (fst (step st c)).
Proof.
  intros Hw Hl. destruct c; cbn [step fst call_legal] in *.
  - now apply mutate_wf.
  - apply mutate_wf; [assumption|]. change (blen []) with 0. now rewrite N.add_0_r.
  - now apply mutate_wf.
  - now apply alloc_wf.
  - now apply fill_wf.
  - now apply mutate_ex_wf.
  - now apply mutate_ex_wf.
  - now apply mutate_ex_wf.
Qed.

Theorem step_entries st c es :
  wf st -> call_legal st c -> entries st = Some es ->
  entries (fst (step st c)) = Some (es ++ accepted st c).
Proof.
  intros Hw Hl He. destruct c; cbn [step accepted call_legal] in *.
  - exact (plain_entry_entries st k (OSet v) obscap es Hw Hl He).
  - refine (plain_entry_entries st k ODel obscap es Hw _ He).
    cbn [op_val]. change (blen []) with 0. now rewrite N.add_0_r.
  - exact (plain_entry_entries st k (OMerge v) obscap es Hw Hl He).
  - rewrite app_nil_r. now apply alloc_entries.
  - rewrite app_nil_r. cbn [fst]. now apply fill_entries.
  - destruct Hl as [Hk Hv].
    exact (alloc_mutate_entries st (OSet (read st vh)) kh vh es Hw Hk Hv eq_refl He).
  - refine (alloc_mutate_entries st ODel kh h_nil es Hw Hl _ eq_refl He). now left.
  - destruct Hl as [Hk Hv].
    exact (alloc_mutate_entries st (OMerge (read st vh)) kh vh es Hw Hk Hv eq_refl He).
Qed.

Theorem run_wf cs : forall st, wf st -> run_legal st cs -> wf (run st cs).
Proof.
  induction cs as [|c r IH]; intros st Hw Hl; [exact Hw|].
  destruct Hl as [Hc Hr]. cbn [run fold_left]. apply IH; [now apply step_wf | exact Hr].
Qed.

Theorem run_entries cs : forall st es,
  wf st -> run_legal st cs -> entries st = Some es ->
  entries (run st cs) = Some (es ++ accepted_run st cs).
Proof.
  induction cs as [|c r IH]; intros st es Hw Hl He; cbn [run fold_left accepted_run].
  - now rewrite app_nil_r.
  - destruct Hl as [Hc Hr]. rewrite app_assoc.
    apply IH; [now apply step_wf | exact Hr | now apply step_entries].
Qed.

Lemma new_batch_wf ops n : n < 9223372036854775808 -> wf (new_batch ops n).
Proof. intro H. unfold wf, new_batch. cbn. repeat split; [lia | exact H]. Qed.

Lemma new_batch_entries ops n : entries (new_batch ops n) = Some [].
Proof. reflexivity. Qed.

(* what was copied into a handle is what it reads *)
Theorem fill_read st h d : h_live st h -> blen d = h_len h -> read (fill st h d) h = d.
Proof.
  intros (Hg & _ & Hlo & Hhi) Hd. unfold h_len in Hd.
  destruct (fill_cases st h d) as [(_ & _ & ->)|[Hno _]]; unfold h_len in *;
    rewrite take_all in * by lia; [|lia].
  unfold read. cbn [b_buf]. replace (h_hi h) with (h_lo h + blen d) by lia.
  apply subs_write_same. lia.
Qed.

(* ... and no other handle outside its range changes *)
Theorem fill_read_other st h d h' :
  h_lo h' <= h_hi h' -> h_hi h' <= blen (b_buf st) -> h_lo h <= h_hi h ->
  (h_hi h' <= h_lo h \/ h_hi h <= h_lo h') ->
  read (fill st h d) h' = read st h'.
Proof.
  intros H1 H2 H3 Hd. destruct (fill_cases st h d) as [(_ & Hin & ->)|[_ ->]]; [|reflexivity].
  unfold read. cbn [b_buf]. pose proof (blen_take_le (h_len h) d). unfold h_len in *.
  apply subs_write; try assumption. lia.
Qed.

Lemma read_sub st h a b : a <= b -> b <= h_len h -> h_hi h <= blen (b_buf st) ->
  read st (h_sub h a b) = subs (read st h) a b.
Proof.
  intros H1 H2 H3. unfold read, h_sub, h_len in *. cbn [h_lo h_hi]. unfold subs.
  replace (h_hi h - h_lo h) with (a + (h_hi h - h_lo h - a)) by lia.
  rewrite drop_take, take_take by lia. rewrite drop_drop. f_equal. lia.
Qed.

Lemma h_sub_live st h a b : h_live st h -> a <= b -> b <= h_len h -> h_live st (h_sub h a b).
Proof. unfold h_live, h_sub, h_len. cbn [h_gen h_lo h_hi h_acap]. lia. Qed.

(* a handle just returned by Alloc: live, n zero bytes, behind every registered range and
   behind every live handle (handed-out ranges never overlap) *)
Theorem alloc_handle_fresh st n st' h es :
  wf st -> entries st = Some es -> alloc st n = (st', RHandle h) ->
  h_live st' h /\ h_len h = n /\ h_lo h = blen (b_buf st) /\ read st' h = zeros n /\
  Forall (fun r => range_disjoint r (h_lo h) (h_hi h)) (ranges st') /\
  (forall h0, h_live st h0 -> h_hi h0 <= h_lo h) /\
  b_gen st' = b_gen st /\ b_cap st' = b_cap st /\ b_kvs st' = b_kvs st.
Proof.
  intros (Hc & Hi & Hf) He. unfold alloc.
  destruct (N.ltb_spec (b_cap st - blen (b_buf st)) n) as [Hn|Hn]; [discriminate|].
  intros [= <- <-]. unfold h_live, h_len, read. cbn [h_gen h_lo h_hi h_acap b_gen b_cap b_buf].
  rewrite blen_app, zeros_blen. repeat split; try lia.
  - rewrite subs_app_at. apply take_all. rewrite zeros_blen. lia.
  - pose proof (ranges_inside st es He) as R. unfold ranges in *. cbn [b_kvs].
    rewrite Forall_forall in *. intros r Hr. specialize (R r Hr). left. lia.
Qed.

(* handles of this batch never have more capacity than buf *)
Lemma handle_cap_le st h : h_live st h -> h_cap h <= b_cap st.
Proof. intros (_ & Ha & _). unfold h_cap. lia. Qed.

Definition is_plain (c : call) : bool :=
  match c with CSet _ _ _ | CDel _ _ | CMerge _ _ _ => true | _ => false end.
Definition call_data (c : call) : bytes :=
  match c with CSet k v _ | CMerge k v _ => k ++ v | CDel k _ => k ++ [] | _ => [] end.

Lemma step_plain c : is_plain c = true ->
  exists code k v oc, call_data c = k ++ v /\ forall st, step st c = mutate st code k v oc.
Proof. destruct c; try discriminate; intros _; do 4 eexists; split; reflexivity. Qed.

Lemma step_not_plain c : is_plain c = false ->
  (exists n, c = CAlloc n) \/ (exists h d, c = CFill h d) \/
  exists code kh vh, forall st, step st c = alloc_mutate st code kh vh.
Proof.
  destruct c; try discriminate; intros _; eauto;
    right; right; do 3 eexists; reflexivity.
Qed.

(* Alloc, AllocSet, AllocDel, AllocMerge that return an error leave the batch as it was *)
Theorem rejected_alloc_call_unchanged st c e :
  is_plain c = false -> snd (step st c) = RErr e -> fst (step st c) = st.
Proof.
  intros [[n ->]|[(h & d & ->)|(code & kh & vh & E)]]%step_not_plain.
  - cbn [step]. unfold alloc. destruct (_ <? _); [reflexivity|discriminate].
  - discriminate.
  - rewrite E. unfold alloc_mutate.
    destruct (mutate_ex_cases st code (b_cap st - h_cap kh) (h_len kh) (h_len vh))
      as [(_ & _ & _ & ->)|(_ & e' & ->)]; [discriminate|reflexivity].
Qed.

(* a rejected Set / Del / Merge registers nothing, but its bytes stay in buf (they were
   appended before the guards ran) and are written out with the segment *)
Theorem rejected_plain_keeps_bytes st c e :
  is_plain c = true -> snd (step st c) = RErr e ->
  b_kvs (fst (step st c)) = b_kvs st /\ b_buf (fst (step st c)) = b_buf st ++ call_data c.
Proof.
  intros (code & k & v & oc & -> & E)%step_plain. rewrite E. unfold mutate.
  destruct (mutate_ex_cases (append_buf st (k ++ v) oc) code (blen (b_buf st)) (blen k) (blen v))
    as [(_ & _ & _ & ->)|(_ & e' & ->)]; [discriminate|].
  intros _. cbn [fst]. now rewrite append_buf_buf, append_buf_kvs.
Qed.

(* growth: only a plain operation that does not fit moves buf to a new array *)
Definition call_bytes (c : call) : N := blen (call_data c).

Theorem step_same_array st c :
  blen (b_buf st) + call_bytes c <= b_cap st ->
  b_gen (fst (step st c)) = b_gen st /\ b_cap (fst (step st c)) = b_cap st.
Proof.
  intro H. unfold call_bytes in H. destruct (is_plain c) eqn:Hp.
  - apply step_plain in Hp as (code & k & v & oc & Ed & E). rewrite E, Ed in *.
    unfold mutate.
    destruct (mutate_ex_frame (append_buf st (k ++ v) oc) code (blen (b_buf st)) (blen k) (blen v))
      as (_ & -> & ->).
    unfold append_buf. rewrite blen_app.
    destruct (N.leb_spec (blen (b_buf st) + blen (k ++ v)) (b_cap st)); [auto|lia].
  - apply step_not_plain in Hp as [[n ->]|[(h & d & ->)|(code & kh & vh & E)]].
    + cbn [step]. unfold alloc. destruct (_ <? _); auto.
    + cbn [step fst]. destruct (fill_shape st h d) as (-> & -> & _). auto.
    + rewrite E. unfold alloc_mutate.
      destruct (mutate_ex_frame st code (b_cap st - h_cap kh) (h_len kh) (h_len vh))
        as (_ & -> & ->). auto.
Qed.

Theorem step_keeps_live st c h :
  wf st -> h_live st h -> blen (b_buf st) + call_bytes c <= b_cap st ->
  blen (b_buf st) <= blen (b_buf (fst (step st c))) -> h_live (fst (step st c)) h.
Proof.
  intros Hw (Hg & Ha & Hlo & Hhi) Hfit Hmono.
  destruct (step_same_array st c Hfit) as [Eg Ec].
  unfold h_live. rewrite Eg, Ec. repeat split; try assumption. lia.
Qed.

Theorem plain_entry_roundtrip st k o oc es :
  wf st -> fits_int st (blen k + blen (op_val o)) oc -> entries st = Some es ->
  entries (fst (plain_entry st k o oc)) =
    Some (es ++ match snd (plain_entry st k o oc) with ROk => [(k, o)] | _ => [] end).
Proof.
  intros Hw Hf He. rewrite (plain_entry_entries st k o oc es Hw Hf He).
  unfold plain_entry, mutate. now rewrite <- mutate_ex_snd.
Qed.

Lemma alloc_fill st n st1 h d es :
  wf st -> entries st = Some es -> alloc st n = (st1, RHandle h) -> blen d = n ->
  let st2 := fill st1 h d in
  wf st2 /\ entries st2 = Some es /\ h_live st2 h /\ h_len h = n /\ read st2 h = d.
Proof.
  intros Hw He Ea Hd st2.
  destruct (alloc_handle_fresh st n st1 h es Hw He Ea) as (Hl & Hn & _ & _ & Hdis & _).
  pose proof (alloc_wf st n Hw) as Hw1. pose proof (alloc_entries st n es He) as He1.
  rewrite Ea in Hw1, He1. cbn [fst] in Hw1, He1.
  split; [now apply fill_wf|].
  split; [apply fill_entries; [right; split|]; assumption|].
  split; [now apply fill_live|].
  split; [exact Hn | apply fill_read; [assumption|lia]].
Qed.

Theorem alloc_entry_roundtrip st k o es :
  wf st -> entries st = Some es ->
  entries (fst (alloc_entry st k o)) =
    Some (es ++ match snd (alloc_entry st k o) with ROk => [(k, o)] | _ => [] end) /\
  wf (fst (alloc_entry st k o)).
Proof.
  intros Hw He. unfold alloc_entry.
  pose proof (alloc_wf st (blen k + blen (op_val o)) Hw) as Hw1.
  pose proof (alloc_entries st (blen k + blen (op_val o)) es He) as He1.
  destruct (alloc st (blen k + blen (op_val o))) as [st1 [|e|h]] eqn:Ea; cbn [fst snd] in *.
  - exfalso. unfold alloc in Ea. destruct (_ <? _); discriminate.
  - rewrite app_nil_r. auto.
  - destruct (alloc_fill st _ st1 h (k ++ op_val o) es Hw He Ea (blen_app _ _))
      as (Hw2 & He2 & Hl2 & Hn & Hr).
    set (st2 := fill st1 h (k ++ op_val o)) in *.
    assert (Hhi : h_hi h <= blen (b_buf st2)) by apply Hl2.
    split; [|now apply mutate_ex_wf].
    unfold alloc_mutate at 2. rewrite <- mutate_ex_snd.
    rewrite (alloc_mutate_entries st2 o _ _ es Hw2); trivial.
    + rewrite read_sub, Hr, subs_0_take, take_app_exact by lia. reflexivity.
    + apply h_sub_live; trivial; lia.
    + right. split; [apply h_sub_live; trivial; lia|]. unfold h_sub. cbn [h_lo h_hi]. lia.
    + rewrite read_sub, Hr by lia. unfold subs. rewrite drop_app_exact.
      symmetry. apply take_all. lia.
Qed.

Fixpoint hlegal (st : bstate) (hs : list hop) : Prop :=
  match hs with
  | [] => True
  | h :: r =>
      match h with
      | HPlain k o oc => fits_int st (blen k + blen (op_val o)) oc
      | HAlloc _ _ => True
      end /\ hlegal (fst (hstep st h)) r
  end.

(* every mixture of plain and Alloc-built operations, keys and values of any length and
   content: the batch decodes to exactly the operations that returned nil, in call order *)
Theorem hrun_entries hs : forall st es,
  wf st -> hlegal st hs -> entries st = Some es ->
  entries (hrun st hs) = Some (es ++ haccepted st hs).
Proof.
  induction hs as [|h r IH]; intros st es Hw Hl He; cbn [hrun fold_left haccepted].
  - now rewrite app_nil_r.
  - destruct Hl as [Hh Hr].
    assert (S : entries (fst (hstep st h)) =
                Some (es ++ match snd (hstep st h) with ROk => [hop_entry h] | _ => [] end) /\
                wf (fst (hstep st h))).
    { destruct h as [k o oc|k o]; cbn [hstep hop_entry].
      - split; [now apply plain_entry_roundtrip | now apply mutate_wf].
      - now apply alloc_entry_roundtrip. }
    destruct S as [S W].
    destruct (hstep st h) as [st' res] eqn:E. cbn [fst snd] in *.
    change (fold_left (fun s h => fst (hstep s h)) r st') with (hrun st' r).
    destruct res; rewrite (IH st' _ W Hr S), <- app_assoc; reflexivity.
Qed.

Lemma pinsert_dec buf p e ps es : dec buf p = Some e ->
  decodes buf ps es -> decodes buf (pinsert buf p ps) (einsert e es).
Proof.
  intros Hp H. induction H as [|a ea r s Ha Hr IH]; cbn [pinsert einsert].
  - repeat constructor. exact Hp.
  - destruct e as [k o], ea as [ka oa].
    rewrite (dec_key _ _ _ _ Hp), (dec_key _ _ _ _ Ha). cbn [fst].
    destruct (bcmp k ka); repeat (constructor; trivial).
Qed.

Lemma sort_pairs_dec buf ps es :
  decodes buf ps es -> decodes buf (sort_pairs buf ps) (sort_seg es).
Proof.
  induction 1 as [|p e r s Hp _ IH]; [constructor|].
  cbn [sort_pairs sort_seg fold_right]. now apply pinsert_dec.
Qed.

(* sorting permutes kvs pairs only: the batch then decodes to Segment.sort_seg of what it
   decoded to before - the model segment of the rest of the development *)
Theorem sort_batch_entries st es :
  entries st = Some es -> entries (sort_batch st) = Some (sort_seg es).
Proof.
  rewrite !entries_decodes. unfold sort_batch. cbn [b_buf b_kvs]. rewrite pairs_flat.
  apply sort_pairs_dec.
Qed.

Theorem sort_batch_buf st : b_buf (sort_batch st) = b_buf st /\ b_cap (sort_batch st) = b_cap st.
Proof. split; reflexivity. Qed.

Lemma batch_keys_entries st es : entries st = Some es -> batch_keys st = keys es.
Proof.
  intros H%entries_decodes. unfold batch_keys.
  induction H as [|p [k o] ps es Hp _ IH]; [reflexivity|].
  cbn [map keys fst]. rewrite (dec_key _ _ _ _ Hp). f_equal. exact IH.
Qed.

(* a sorted batch with unique keys is a segment in the sense of Segment.v *)
Theorem sorted_batch_is_segment st es :
  entries st = Some es -> NoDup (keys es) ->
  entries (sort_batch st) = Some (sort_seg es) /\ asc (keys (sort_seg es)) /\
  (forall x, In x (sort_seg es) <-> In x es) /\
  (forall k, find (sort_seg es) k = find es k).
Proof.
  intros He Hn.
  split; [now apply sort_batch_entries|]. split; [now apply sort_seg_asc|].
  split; [apply sort_seg_in | intro k; now apply find_sort_seg].
Qed.

Theorem batch_find_start_spec st es key :
  entries st = Some es -> NoDup (keys es) ->
  batch_find_start (sort_batch st) key = Index.lower_bound (keys (sort_seg es)) key.
Proof.
  intros He Hn. unfold batch_find_start.
  rewrite (batch_keys_entries _ _ (sort_batch_entries st es He)).
  apply IndexFacts.C14_no_index_correct. now apply sort_seg_asc.
Qed.

Theorem batch_find_key_spec st es key :
  entries st = Some es -> NoDup (keys es) ->
  batch_find_key (sort_batch st) key = Index.position (keys (sort_seg es)) key.
Proof.
  intros He Hn. unfold batch_find_key.
  rewrite (batch_keys_entries _ _ (sort_batch_entries st es He)).
  apply IndexFacts.C14_no_index_correct. now apply sort_seg_asc.
Qed.

Lemma find_position es key :
  find es key = match Index.position (keys es) key with
                | Some p => option_map snd (nth_error es p)
                | None => None
                end.
Proof.
  induction es as [|[k o] r IH]; [reflexivity|].
  cbn [find keys map fst Index.position]. fold (keys r).
  destruct (beqb k key); [reflexivity|]. rewrite IH.
  destruct (Index.position (keys r) key); reflexivity.
Qed.

(* Segment.Get on the sorted batch = the specification lookup in what was put in *)
Theorem batch_get_spec st es key :
  entries st = Some es -> NoDup (keys es) -> batch_get (sort_batch st) key = find es key.
Proof.
  intros He Hn. unfold batch_get.
  rewrite (batch_find_key_spec st es key He Hn), (sort_batch_entries st es He).
  rewrite <- (find_sort_seg es key Hn). rewrite (find_position (sort_seg es) key).
  destruct (Index.position _ _); reflexivity.
Qed.

(* refuted: what does NOT hold *)

Definition b_k1v1 : bytes := [107; 49; 118; 49].                          (* "k1v1" *)
Definition b_plainkey : bytes := [112; 108; 97; 105; 110; 107; 101; 121].  (* "plainkey" *)
Definition b_plainval : bytes := [112; 108; 97; 105; 110; 118; 97; 108].   (* "plainval" *)

(* b := NewBatch(4, 8); h := b.Alloc(4); copy(h, "k1v1");
   b.Set("plainkey", "plainval")      -- 16 bytes do not fit behind the 4 allocated ones:
                                         append moves buf to a new array (observed cap 32)
   b.AllocSet(h[:2], h[2:])           -- keyStart = 32 - cap(h) = 32 - 8 = 24, not 0
   The handle came from Alloc of this batch and was filled before use; every call
   returns nil; yet the batch does not hold ("k1" -> "v1"): the recorded start offset is
   24, beyond len(buf) = 20 (the model's entries faults; Go reads zero bytes inside the
   capacity and Get answers ErrSegmentCorrupted).  Reproduced on the Go code. *)
Definition stale_h : handle := mkH 0 0 4 8.
Definition stale_calls : list call :=
  [CAlloc 4; CFill stale_h b_k1v1; CSet b_plainkey b_plainval 32;
   CAllocSet (h_sub stale_h 0 2) (h_sub stale_h 2 4)].

Theorem stale_handle_refuted :
  snd (alloc (new_batch 4 8) 4) = RHandle stale_h /\
  read (run (new_batch 4 8) [CAlloc 4; CFill stale_h b_k1v1]) stale_h = b_k1v1 /\
  map (fun c => res_code (snd (step (new_batch 4 8) c))) [CAlloc 4] = [0] /\
  b_gen (run (new_batch 4 8) stale_calls) = 1 /\
  b_kvs (run (new_batch 4 8) stale_calls) =
    [encode OperationSet 8 8; 4; encode OperationSet 2 2; 24] /\
  blen (b_buf (run (new_batch 4 8) stale_calls)) = 20 /\
  entries (run (new_batch 4 8) stale_calls) <>
    Some [(b_plainkey, OSet b_plainval); ([107; 49], OSet [118; 49])].
Proof. vm_compute. repeat split; discriminate. Qed.

(* AllocSet looks at the LENGTH of the value slice only: a value that was allocated
   elsewhere is not what gets registered, and no error is returned.
   k := Alloc(2) "k1"; x := Alloc(2) "xx"; v := Alloc(2) "v1"; AllocSet(k, v) *)
Definition detached_calls : list call :=
  [CAlloc 2; CFill (mkH 0 0 2 16) [107; 49]; CAlloc 2; CFill (mkH 0 2 4 16) [120; 120];
   CAlloc 2; CFill (mkH 0 4 6 16) [118; 49]; CAllocSet (mkH 0 0 2 16) (mkH 0 4 6 16)].

Theorem detached_value_refuted :
  entries (run (new_batch 2 16) detached_calls) = Some [([107; 49], OSet [120; 120])] /\
  snd (step (run (new_batch 2 16) (removelast detached_calls))
            (CAllocSet (mkH 0 0 2 16) (mkH 0 4 6 16))) = ROk.
Proof. vm_compute. split; reflexivity. Qed.

(* the hypotheses are satisfiable on non-trivial states *)

Ltac nsolve := vm_compute; first [reflexivity | discriminate | (intro; discriminate)].

Definition ex_h : handle := mkH 0 2 6 16.
Definition ex_calls : list call :=
  [CSet [97] [0] 16; CAlloc 4; CFill ex_h b_k1v1;
   CAllocSet (h_sub ex_h 0 2) (h_sub ex_h 2 4); CDel [255] 16].

Example run_entries_example :
  wf (new_batch 4 16) /\ run_legal (new_batch 4 16) ex_calls /\
  snd (alloc (fst (step (new_batch 4 16) (CSet [97] [0] 16))) 4) = RHandle ex_h /\
  entries (run (new_batch 4 16) ex_calls) =
    Some [([97], OSet [0]); ([107; 49], OSet [118; 49]); ([255], ODel)] /\
  accepted_run (new_batch 4 16) ex_calls =
    [([97], OSet [0]); ([107; 49], OSet [118; 49]); ([255], ODel)].
Proof.
  split; [apply new_batch_wf; nsolve|].
  split; [|vm_compute; repeat split; reflexivity].
  cbn [run_legal call_legal ex_calls].
  split; [nsolve|]. split; [exact I|]. split.
  { right. split; [repeat split; nsolve|].
    vm_compute. apply Forall_cons; [left; vm_compute; intro; discriminate | apply Forall_nil]. }
  split.
  { split; [repeat split; nsolve|]. right. split; [repeat split; nsolve | nsolve]. }
  split; [nsolve | exact I].
Qed.

Definition ex_hops : list hop :=
  [HPlain [] (OSet []) 0; HAlloc [99; 0] (OMerge [255]); HPlain [98] ODel 64;
   HAlloc [97] ODel; HAlloc [100; 100; 100; 100; 100; 100; 100; 100] (OSet [1])].

(* capacity 3: the plain Del of "b" outgrows it (new array, capacity 64 observed); the
   Alloc-built operations before and after it round-trip all the same *)
Example hrun_entries_example :
  wf (new_batch 4 3) /\ hlegal (new_batch 4 3) ex_hops /\
  entries (hrun (new_batch 4 3) ex_hops) =
    Some [([], OSet []); ([99; 0], OMerge [255]); ([98], ODel); ([97], ODel);
          ([100; 100; 100; 100; 100; 100; 100; 100], OSet [1])] /\
  b_gen (hrun (new_batch 4 3) ex_hops) = 1.
Proof.
  split; [apply new_batch_wf; nsolve|].
  split; [|vm_compute; split; reflexivity].
  cbn [hlegal ex_hops]. repeat split; nsolve.
Qed.

Example sort_example :
  let st := hrun (new_batch 4 3) ex_hops in
  entries (sort_batch st) =
    Some [([], OSet []); ([97], ODel); ([98], ODel); ([99; 0], OMerge [255]);
          ([100; 100; 100; 100; 100; 100; 100; 100], OSet [1])] /\
  batch_find_start (sort_batch st) [98; 0] = 3%nat /\
  batch_get (sort_batch st) [99; 0] = Some (OMerge [255]).
Proof. vm_compute. repeat split; reflexivity. Qed.
