From Coq Require Import List Arith Bool Lia.
From Moss Require Import Bytes BytesFacts Segment SegmentFacts Stack StackFacts Collection CollectionFacts Theorems History.

(* ---- the declarative reading of the check ------------------------------------ *)
Definition hist_ok (h : history) : Prop :=
  (forall s, In s (h_snaps h) -> forall v, In v (s_views s) -> exists p, view_prefix v = Some p) /\
  (forall s b, In s (h_snaps h) -> In b (h_batches h) ->
     exists p, prefix_of s (b_writer b) = Some p /\
               (b_end b < s_start s -> b_seq b <= p) /\ (s_end s < b_start b -> p < b_seq b)) /\
  (forall s1 s2, In s1 (h_snaps h) -> In s2 (h_snaps h) -> s_end s1 < s_start s2 ->
     forall w, w < Nat.max (length (s_views s1)) (length (s_views s2)) ->
       exists p1 p2, prefix_of s1 w = Some p1 /\ prefix_of s2 w = Some p2 /\ p1 <= p2).

Lemma if_ltb_true a b (c : bool) : (if a <? b then c else true) = true <-> (a < b -> c = true).
Proof. destruct (Nat.ltb_spec a b); intuition lia. Qed.

Lemma snap_atomic_iff s :
  snap_atomic s = true <-> forall v, In v (s_views s) -> exists p, view_prefix v = Some p.
Proof.
  unfold snap_atomic. rewrite forallb_forall.
  split; intros H v Hv; specialize (H v Hv); destruct (view_prefix v) as [p|].
  - now exists p.
  - discriminate.
  - reflexivity.
  - now destruct H.
Qed.

Lemma snap_realtime_iff bs s :
  snap_realtime bs s = true <->
  forall b, In b bs ->
    exists p, prefix_of s (b_writer b) = Some p /\
              (b_end b < s_start s -> b_seq b <= p) /\ (s_end s < b_start b -> p < b_seq b).
Proof.
  unfold snap_realtime. rewrite forallb_forall. split; intros H b Hb; specialize (H b Hb).
  - destruct (prefix_of s (b_writer b)) as [p|]; [|discriminate]. exists p.
    now rewrite andb_true_iff, !if_ltb_true, Nat.leb_le, Nat.ltb_lt in H.
  - destruct H as (p & -> & H). now rewrite andb_true_iff, !if_ltb_true, Nat.leb_le, Nat.ltb_lt.
Qed.

Lemma snaps_monotone_iff s1 s2 :
  snaps_monotone s1 s2 = true <->
  (s_end s1 < s_start s2 -> forall w, w < Nat.max (length (s_views s1)) (length (s_views s2)) ->
     exists p1 p2, prefix_of s1 w = Some p1 /\ prefix_of s2 w = Some p2 /\ p1 <= p2).
Proof.
  unfold snaps_monotone. rewrite if_ltb_true, forallb_forall.
  split; intros H Hlt w Hw; specialize (H Hlt w).
  - rewrite in_seq in H. specialize (H (conj (Nat.le_0_l w) Hw)).
    destruct (prefix_of s1 w) as [p1|], (prefix_of s2 w) as [p2|]; try discriminate.
    exists p1, p2. now rewrite Nat.leb_le in H.
  - apply in_seq in Hw. destruct H as (p1 & p2 & -> & -> & H); [lia|]. now apply Nat.leb_le.
Qed.

Lemma check_hist_iff h : check_hist h = true <-> hist_ok h.
Proof.
  unfold check_hist, hist_ok. rewrite !andb_true_iff, !forallb_forall, and_assoc.
  setoid_rewrite snap_atomic_iff. setoid_rewrite snap_realtime_iff.
  setoid_rewrite forallb_forall. setoid_rewrite snaps_monotone_iff.
  split; intros (H1 & H2 & H3); (split; [exact H1|split]); eauto.
Qed.

Theorem check_hist_sound h : check_hist h = true -> hist_ok h.
Proof. apply check_hist_iff. Qed.

Theorem check_hist_complete h : hist_ok h -> check_hist h = true.
Proof. apply check_hist_iff. Qed.

(* ---- the model: writers on disjoint key sets ---------------------------------- *)
Section WithMerge.
  Variable fm : bytes -> value -> bytes -> value.
  Notation ref_from := (ref_from fm).

  (* batches tagged with their writer; own k = the writer whose key set holds k *)
  Definition tagged := list (nat * segment).
  Variable own : bytes -> nat.
  Definition respects (h : tagged) : Prop :=
    forall w b, In (w, b) h -> forall k, In k (keys b) -> own k = w.

  Definition of_writer (w : nat) (h : tagged) : tagged := filter (fun p => Nat.eqb (fst p) w) h.

  (* restricted to a writer's keys, the reference over ANY interleaving is the
     reference over that writer's own batches alone *)
  Lemma ref_restrict m0 (h : tagged) k :
    respects h ->
    ref_from m0 (map snd h) k = ref_from m0 (map snd (of_writer (own k) h)) k.
  Proof.
    intros Hr. induction h as [|[w b] r IH] using rev_ind; [reflexivity|].
    assert (Hr' : respects r).
    { intros w' b' Hin. apply (Hr w' b'). apply in_or_app; auto. }
    rewrite map_app. simpl. rewrite ref_from_snoc, (IH Hr').
    unfold of_writer at 3. rewrite filter_app, map_app. simpl. fold (of_writer (own k) r).
    destruct (Nat.eqb w (own k)) eqn:E; simpl; [now rewrite ref_from_snoc|].
    rewrite app_nil_r. destruct (Segment.find b k) eqn:F; auto.
    exfalso. apply find_some_key in F.
    assert (own k = w) by (apply (Hr w b); [apply in_or_app; right; simpl; auto|auto]).
    apply Nat.eqb_neq in E. congruence.
  Qed.

  (* the batches of one writer inside a prefix of the interleaving are a prefix
     of that writer's batches *)
  Lemma of_writer_firstn w (h : tagged) n :
    of_writer w (firstn n h) = firstn (length (of_writer w (firstn n h))) (of_writer w h).
  Proof.
    revert n. induction h as [|[w' b] r IH]; intros n; destruct n; simpl; auto.
    destruct (Nat.eqb w' w) eqn:E; simpl.
    - f_equal. apply IH.
    - apply IH.
  Qed.

  Lemma of_writer_firstn_mono w (h : tagged) n1 n2 :
    n1 <= n2 -> length (of_writer w (firstn n1 h)) <= length (of_writer w (firstn n2 h)).
  Proof.
    revert n1 n2. induction h as [|[w' b] r IH]; intros n1 n2 Hle; destruct n1, n2; simpl; try lia.
    destruct (Nat.eqb w' w); simpl; specialize (IH n1 n2); lia.
  Qed.

  (* C03 on the model: a snapshot taken after the first n batch steps of ANY
     interleaving shows, on writer w's keys, exactly the reference after a
     prefix of w's own batches; the prefix grows with n; a batch among the
     first n is included. *)
  Theorem snapshot_shows_writer_prefix m0 (h : tagged) n k :
    respects h ->
    exists p, p = length (of_writer (own k) (firstn n h)) /\
      ref_from m0 (map snd (firstn n h)) k
      = ref_from m0 (map snd (firstn p (of_writer (own k) h))) k.
  Proof.
    intros Hr. eexists. split; [reflexivity|].
    rewrite ref_restrict.
    - rewrite <- of_writer_firstn. reflexivity.
    - intros w b Hin. apply (Hr w b). eapply In_firstn_in; eauto.
  Qed.
  (* C03 on the collection model: whatever the interleaving of the writers'
     batches with merger, persister and compaction steps, a snapshot shows on
     writer w's keys exactly the reference of w's own batches executed so far *)
  Theorem snapshot_is_per_writer_prefix c l0 ls s (h : tagged) :
    run fm c (init l0) ls = Some s -> closed s = false ->
    batches ls = map snd h -> respects h ->
    forall k, snap_get fm (cur_snapshot s) k
              = ref_from (llv fm l0) (map snd (of_writer (own k) h)) k.
  Proof.
    intros Hr Hc Hb Hres k.
    rewrite (snapshot_reads_reference fm c l0 ls s Hr Hc k). rewrite Hb.
    apply ref_restrict. exact Hres.
  Qed.
End WithMerge.
