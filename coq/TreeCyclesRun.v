(* TreeCyclesRun.v - the end-to-end tree theorem IN THE MIDDLE of cycle n+1:
   after any number of open / run / close cycles from any well-formed store,
   the collection reopened on the resulting store and run through any further
   label sequence reads as the reference tree of (per-cycle prefixes ++ the
   batches of the current run).  Pure composition of TreeCyclesFacts. *)
From Coq Require Import List.
From Moss Require Import Tree TreeColl TreeRun TreeInv TreeCycles TreeCyclesFacts.
Import ListNotations.

Section CyclesThenRun.
  Variable fm : bytes -> value -> bytes -> value.
  Notation good := (fun b => tb_good b = true).

  (* the from-any-store theorem together with what the cut-down reference tree is *)
  Theorem tree_snapshot_reads_reference_from_any_store c f r0 ls cs :
    fn_wf f -> fn_reads_mod fm f r0 ->
    Forall good (cbatches ls) ->
    crun fm c (cinit_from c f) ls = Some cs ->
    reads_as fm (t_cur_snapshot (c_t cs)) (rt_run (rt_restrict r0 f) (cbatches ls)) /\
    rt_sub fm (rt_restrict r0 f) r0 /\ fn_reads_exact fm f (rt_restrict r0 f).
  Proof.
    intros Hw Hr Hg Hrun. split.
    - exact (tree_snapshot_reads_reference_from fm c f r0 ls cs Hw Hr Hg Hrun).
    - exact (rt_restrict_spec fm f r0 Hr).
  Qed.

  Theorem tree_cycles_then_run_reads_reference c f0 r0 cy sts ff ls cs :
    fn_wf f0 -> fn_reads_mod fm f0 r0 -> cycles_good cy ->
    cycles_run fm c f0 cy = Some (sts, ff) ->
    Forall2 (fun st (lc : cycle) => close_choice_ok st (snd lc)) sts cy ->
    Forall good (cbatches ls) ->
    crun fm c (cinit_from c ff) ls = Some cs ->
    exists hs,
      Forall2 is_prefix_of hs cy /\
      reads_mod fm (t_cur_snapshot (c_t cs)) (rt_run r0 (concat hs ++ cbatches ls)).
  Proof.
    intros Hw Hr Hg Hrun Hok Hgl Hcr.
    destruct (tree_cycles_prefixes fm c f0 r0 cy sts ff Hw Hr Hg Hrun Hok)
      as (hs & Hp & Hwf & Hrf & _).
    exists hs. split; [exact Hp|].
    rewrite TreeInvFacts.rt_run_app.
    exact (tree_snapshot_reads_reference_from_mod fm c ff _ ls cs Hwf Hrf Hgl Hcr).
  Qed.

  (* when persistence had caught up before every close: ALL batches of all cycles *)
  Theorem tree_cycles_then_run_reads_everything c f0 r0 cy sts ff ls cs :
    fn_wf f0 -> fn_reads_mod fm f0 r0 -> cycles_good cy ->
    cycles_run fm c f0 cy = Some (sts, ff) ->
    Forall caught_up sts ->
    Forall good (cbatches ls) ->
    crun fm c (cinit_from c ff) ls = Some cs ->
    reads_mod fm (t_cur_snapshot (c_t cs))
              (rt_run r0 (concat (cycle_batches cy) ++ cbatches ls)).
  Proof. exact (tree_cycles_content_then_run fm c f0 r0 cy sts ff ls cs). Qed.
End CyclesThenRun.

(* not vacuous: after the three incarnations of TreeCyclesFacts.cy_three (append, append,
   full compaction) a fourth incarnation is stopped in the middle of its run - one batch
   executed and ingested, a second one still in the top - and reads a Merge operand of the
   child collection folded over what the three earlier incarnations persisted *)
Definition cy_mid : list clabel :=
  [CBatch (TB [] [(cy_n, Some (TB [(cy_k, OMerge [99%N])] []))]); CIngest;
   CBatch (TB [(cy_k, ODel)] [])].

Example tree_cycles_then_run_example :
  exists sts ff cs s,
    cycles_good cy_three /\
    cycles_run fm_append cy_cfg fnode_empty cy_three = Some (sts, ff) /\
    Forall caught_up sts /\
    Forall (fun b => tb_good b = true) (cbatches cy_mid) /\
    crun fm_append cy_cfg (cinit_from cy_cfg ff) cy_mid = Some cs /\
    ss_get fm_append (t_cur_snapshot (c_t cs)) cy_k = None /\
    assoc cy_n (ss_kids (t_cur_snapshot (c_t cs))) = Some s /\
    ss_get fm_append s cy_k = Some [100; 58; 97; 58; 98; 58; 99]%N.
Proof.
  do 4 eexists. split; [repeat constructor|]. split; [vm_compute; reflexivity|].
  split; [repeat constructor|]. split; [repeat constructor|].
  split; [vm_compute; reflexivity|]. split; [vm_compute; reflexivity|].
  split; vm_compute; reflexivity.
Qed.

Print Assumptions tree_cycles_then_run_reads_reference.
