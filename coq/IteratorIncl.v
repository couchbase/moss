(* IteratorIncl.v — specification of the moss iterator for
   IteratorOptions.IncludeDeletions = true.  Executable definitions ONLY; the
   lemmas about walk and seek_list are in IteratorFacts.v (both settings of
   IncludeDeletions use them), the rest in IteratorInclFacts.v.

   Two specifications of SeekTo are given:
   - seek_natural: position at the first entry whose key is >= max(x, start);
   - seek_naive:   what moss does.  When the iterator stands on a live (non
     deletion) entry whose key is below x, SeekTo walks forward with Next for
     at most c_tries steps (naiveSeekTo) and stops only on a NON-deletion
     entry with key >= x: Current() reports a nil key for a deletion entry and
     bytes.Compare(x, nil) <= 0 is false.  Deletion entries at or after x are
     stepped over.  Everywhere else (standing on a deletion, exhausted, x at or
     behind the current key, budget exhausted) it is the natural seek. *)
From Moss Require Export Iterator.
From Coq Require Import Arith.

Section SeekList.
  Context {A : Type}.
  Variable isdel : A -> bool.

  (* the loop of naiveSeekTo over the entries that are left; n = iterations left *)
  Fixpoint walk (n : nat) (x : bytes) (l : list (bytes * A)) : list (bytes * A) * nres :=
    match n with
    | O => (l, NMax)
    | S n' =>
        match l with
        | [] => ([], NDone)
        | (k, a) :: t =>
            if negb (isdel a) && bleb x k then (l, NOk)
            else match t with
                 | [] => ([], NDone)
                 | _ :: _ => walk n' x t
                 end
        end
    end.

  (* maxTries <= 0 is unbounded: one more iteration than entries left never runs out *)
  Definition walk_fuel (tries : nat) (l : list (bytes * A)) : nat :=
    if Nat.eqb tries 0 then S (length l) else tries.

  (* SeekTo x when the entries left are l and the whole range is full *)
  Definition seek_list (start : option bytes) (tries : nat) (full : list (bytes * A))
             (x : bytes) (l : list (bytes * A)) : list (bytes * A) :=
    let restart := drop_lt (seek_bound start x) full in
    match l with
    | [] => restart
    | (k, a) :: _ =>
        if isdel a then restart
        else match bcmp x k with
             | Eq => l
             | Lt => restart
             | Gt => match walk (walk_fuel tries l) x l with
                     | (_, NMax) => restart
                     | (l', _) => l'
                     end
             end
    end.

  (* drop leading deletion entries *)
  Fixpoint skip_dels (l : list (bytes * A)) : list (bytes * A) :=
    match l with
    | [] => []
    | (k, a) :: t => if isdel a then skip_dels t else l
    end.

  (* the suffix that starts at the first live entry with key >= x *)
  Fixpoint first_live_ge (x : bytes) (l : list (bytes * A)) : list (bytes * A) :=
    match l with
    | [] => []
    | (k, a) :: t => if negb (isdel a) && bleb x k then l else first_live_ge x t
    end.

  Definition hd_isdel (l : list (bytes * A)) : bool :=
    match l with (_, a) :: _ => isdel a | [] => false end.

  (* the one situation in which moss does not seek naturally: standing on a live
     entry below x while the first entry at or after x is a deletion *)
  Definition fwd_onto_del (x : bytes) (l : list (bytes * A)) : bool :=
    match l with
    | (k, a) :: _ => negb (isdel a) && bltb k x && hd_isdel (drop_lt x l)
    | [] => false
    end.
End SeekList.

Section SpecIncl.
  Variable fm : bytes -> value -> bytes -> value.

  (* key, newest operation, value Current() reports *)
  Definition ientry := (bytes * (op * value))%type.

  Definition dec (cfg : config) (e : entry) : ientry :=
    (fst e, (snd e, full_get fm cfg (fst e))).

  (* every key of [start,end) that occurs in a segment or in the lower level,
     ascending, with its newest operation and its value over the whole stack *)
  Definition raw_spec (cfg : config) : list ientry := map (dec cfg) (raw_range cfg).

  Definition idel (a : op * value) : bool := is_del (fst a).

  Definition spec_current_incl (l : list ientry) : result :=
    match l with
    | [] => RDone
    | (k, (o, v)) :: _ => if is_del o then RDeleted else RCur k v
    end.

  Definition spec_current_ex (l : list ientry) : option entry :=
    match l with
    | [] => None
    | (k, (o, _)) :: _ => Some (k, o)
    end.

  Definition seek_natural (cfg : config) (x : bytes) (l : list ientry) : list ientry :=
    drop_lt (seek_bound (c_start cfg) x) (raw_spec cfg).

  Definition seek_naive (cfg : config) (x : bytes) (l : list ientry) : list ientry :=
    seek_list idel (c_start cfg) (c_tries cfg) (raw_spec cfg) x l.

  Section Run.
    Variable seek : config -> bytes -> list ientry -> list ientry.

    Fixpoint run_spec_incl_from (cfg : config) (l : list ientry) (prog : list call) : list result :=
      match prog with
      | [] => []
      | CNext :: p => is_ok (nonempty (tl l)) :: run_spec_incl_from cfg (tl l) p
      | CSeek x :: p =>
          let l' := seek cfg x l in
          is_ok (nonempty l') :: run_spec_incl_from cfg l' p
      | CCurrent :: p => spec_current_incl l :: run_spec_incl_from cfg l p
      end.

    (* entries left after the program *)
    Fixpoint exec_spec_incl (cfg : config) (l : list ientry) (prog : list call) : list ientry :=
      match prog with
      | [] => l
      | CNext :: p => exec_spec_incl cfg (tl l) p
      | CSeek x :: p => exec_spec_incl cfg (seek cfg x l) p
      | CCurrent :: p => exec_spec_incl cfg l p
      end.
  End Run.

  (* the natural specification *)
  Definition run_spec_incl (cfg : config) (prog : list call) : list result :=
    run_spec_incl_from seek_natural cfg (raw_spec cfg) prog.

  (* the specification moss meets *)
  Definition run_spec_incl_naive (cfg : config) (prog : list call) : list result :=
    run_spec_incl_from seek_naive cfg (raw_spec cfg) prog.

  (* programs on which the two agree: no SeekTo walks forward onto a deletion *)
  Fixpoint tame (cfg : config) (l : list ientry) (prog : list call) : bool :=
    match prog with
    | [] => true
    | CNext :: p => tame cfg (tl l) p
    | CSeek x :: p => negb (fwd_onto_del idel x l) && tame cfg (seek_natural cfg x l) p
    | CCurrent :: p => tame cfg l p
    end.
End SpecIncl.

(* model state after a program *)
Fixpoint exec_calls (st : iter_state) (prog : list call) : iter_state :=
  match prog with
  | [] => st
  | CNext :: p => exec_calls (fst (iter_next st)) p
  | CSeek x :: p => exec_calls (fst (iter_seek x st)) p
  | CCurrent :: p => exec_calls st p
  end.
